(* C06 -- procfs calls return only genuine procfs objects under any over-mounts.
   What is proved, for all kernel answers: ProcfsHandle::open is the instance of a program
   with its two verification sites as parameters (popen_gen) at verify_same_procfs_mnt; with
   a final verification that always fails that program never returns a descriptor, i.e. no
   result bypasses the check; likewise one step of the emulated walk (pstep_gen) cannot be
   taken when its mount-id check fails; every openat2 of the kernel resolver carries
   RESOLVE_BENEATH|NO_XDEV|NO_MAGICLINKS; comparisons with an unknown mount id fail closed.
   That equal mount ids mean "the same mount, not an over-mount" is the kernel's statx
   contract; the over-mount runs of tools/props/C06.py exercise it in a private mount
   namespace. *)
From PV Require Import Discipline ProgTac DisciplineProofs FaultProofs ProcfsProps MountProofs.

Theorem C06_open_is_generic_instance :
  forall fz cfg fuel h base sub fl,
    peq (popen fz cfg fuel h base sub fl)
        (popen_gen fz cfg (verify_same_procfs_mnt fz) (verify_same_procfs_mnt fz) fuel h base sub fl).
Proof.
  intros fz cfg fuel. induction fuel as [|f IH]; intros h base sub fl; cbn [popen popen_gen]; [constructor|].
  unfold bindR, open_base.
  apply peq_bind; [apply peq_refl|]. intros [basedir|e]; [|apply peq_refl].
  apply peq_bind; [apply peq_refl|]. intro r.
  apply peq_bind; [apply peq_refl|]. intro r2.
  apply peq_bind; [|intro; apply peq_refl].
  destruct r2 as [fd|e]; [apply peq_refl|].
  destruct (ph_subset h && ekind_is_enoent e); [|apply peq_refl].
  apply peq_bind; [apply peq_refl|]. intros [h'|e']; [|apply peq_refl].
  destruct (RETRY_ONLY_UNMASKED && ph_subset h'); [apply peq_refl|].
  apply peq_bind; [apply IH|intro; apply peq_refl].
Qed.

Theorem C06_result_verified :
  forall fz cfg vb vf fuel, vfy_fails vf -> forall h base sub fl,
    okp TC TS is_Err (popen_gen fz cfg vb vf fuel h base sub fl).
Proof.
  intros fz cfg vb vf fuel Hv. induction fuel as [|f IH]; intros h base sub fl; cbn [popen_gen]; [constructor|].
  unfold bindR. apply rets_bind. intros [basedir|e]; [|auto with errs].
  apply rets_bind. intros r.
  (* the verified lookup fails: its own error, or the one of the final verification *)
  apply (okp_bind _ _ is_Err).
  { destruct r as [fd|e]; [|auto with errs].
    eapply okp_bind; [apply Hv|]. intros [u|e] Hr; [destruct Hr|auto with errs]. }
  intros [fd|e] Hr2; [destruct Hr2|].
  (* and so does the retry on a fresh handle, by induction *)
  apply (okp_bind _ _ is_Err).
  { destruct (ph_subset h && ekind_is_enoent e); [|auto with errs].
    apply rets_bind. intros [h'|e']; [|auto with errs].
    destruct (RETRY_ONLY_UNMASKED && ph_subset h'); [auto with errs|].
    eapply okp_bind; [apply IH|]. intros r' Hr'. apply rets_bind. intro. constructor. exact Hr'. }
  intros r3 Hr3. apply rets_bind. intro. constructor. exact Hr3.
Qed.

Theorem C06_every_step_verified :
  forall fz vs root_mnt cur part,
    (forall m fd, okp TC TS is_Err (vs m fd)) -> okp TC TS is_Err (pstep_gen fz vs root_mnt cur part).
Proof.
  intros fz vs root_mnt cur part Hv. unfold pstep_gen. apply rets_bind. intros [next|e]; [|auto with errs].
  eapply okp_bind; [apply Hv|]. intros [u|e] Hr; [destruct Hr|auto with errs].
Qed.

(* the kernel resolver for procfs is confined by RESOLVE_BENEATH|NO_XDEV|NO_MAGICLINKS on every call (C05) *)
Theorem C06_kernel_resolver_no_xdev :
  forall fz cfg root p fl rf, real_fd root = true -> all_calls Pdn (openat2_resolve fz cfg root p fl rf).
Proof. intros. eapply okp_all_calls. apply (openat2_resolve_ok Jd); [assumption|exact I]. Qed.

Theorem C06_mntid_fail_closed :
  forall a, opt_n_eqb (Some a) None = false /\ opt_n_eqb None (Some a) = false.
Proof. split; reflexivity. Qed.

Print Assumptions C06_open_is_generic_instance.
Print Assumptions C06_result_verified.
Print Assumptions C06_every_step_verified.
Print Assumptions C06_kernel_resolver_no_xdev.
Print Assumptions C06_mntid_fail_closed.
