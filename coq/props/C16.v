(* C16 -- C error ids are unique, consumed exactly once, and never look like an errno.
   The table is a state machine whose operations are atomic (the Mutex); a
   history is any list of store / take operations, i.e. any interleaving of any
   number of threads.  [draws] (the generator's candidate stream) is arbitrary. *)
From PV Require Import ErrTable ErrTableProofs.

Theorem C16_id_not_errno :
  forall E (t : table E) o t' id,
    draws_ok E o -> step E t o = (t', RStored E id) -> id < -4095 /\ INT_MIN <= id.
Proof.
  intros E t [draws e|i] t' id Hd H; [|discriminate H].
  destruct (step_stored _ _ _ _ _ _ H) as (Hin & _ & _).
  apply in_range_not_errno. cbn in Hd. rewrite Forall_forall in Hd. apply Hd, Hin.
Qed.

Theorem C16_unique_live :
  forall E (t : table E) draws e t' id,
    step E t (OStore E draws e) = (t', RStored E id) -> tlookup E id t = None.
Proof. intros E t draws e t' id H. apply (step_stored _ _ _ _ _ _ H). Qed.

Theorem C16_take_exact_once :
  forall E (t : table E) draws e t1 id,
    step E t (OStore E draws e) = (t1, RStored E id) ->
    forall others : list (op E),
      Forall (fun o => match o with OTake _ i => i <> id | OStore _ _ _ => True end) others ->
      let '(t2, _) := run E t1 others in
      let '(t3, r1) := step E t2 (OTake E id) in
      let '(_, r2) := step E t3 (OTake E id) in
      r1 = RTaken E (Some e) /\ r2 = RTaken E None.
Proof.
  intros E t draws e t1 id Hs others Hoth.
  assert (H1 : tlookup E id t1 = Some e).
  { destruct (step_stored _ _ _ _ _ _ Hs) as (_ & _ & ->). cbn. rewrite Z.eqb_refl. reflexivity. }
  clear Hs. revert t1 H1. induction Hoth as [|o rest Ho Hrest IH]; intros t1 H1.
  - cbn. rewrite H1. split; [reflexivity|]. rewrite tlookup_tremove_same. reflexivity.
  - cbn [run]. pose proof (step_keeps E id e t1 o Ho H1) as H1'.
    destruct (step E t1 o) as [t1' x]. specialize (IH t1' H1').
    destruct (run E t1' rest) as [t2 xs]. exact IH.
Qed.

Theorem C16_refines_map :
  forall E (t : table E) o,
    match o, step E t o with
    | OStore _ draws e, (t', RStored _ id) =>
        In id draws /\ abs E t id = None /\ forall k, abs E t' k = aset E (abs E t) id e k
    | OStore _ _ _, (t', RStuck _) => t' = t
    | OTake _ id, (t', RTaken _ r) => r = abs E t id /\ forall k, abs E t' k = adel E (abs E t) id k
    | _, _ => False
    end.
Proof.
  intros E t [draws e|id]; cbn.
  - destruct (store E draws e t) as [[id t']|] eqn:Es; [|reflexivity].
    destruct (store_spec _ _ _ _ _ _ Es) as (Hin & Hv & ->).
    split; [exact Hin|split; [exact Hv|]]. intro k. unfold abs, aset. cbn.
    rewrite Z.eqb_sym. reflexivity.
  - split; [reflexivity|]. intro k. unfold abs, adel.
    destruct (Z.eqb_spec k id) as [ -> |Hne]; [apply tlookup_tremove_same|apply tlookup_tremove_other; exact Hne].
Qed.

Theorem C16_errno_table :
  (forall e, saved_errno (OsError e) = e) /\
  saved_errno InvalidArgument = 22%N /\ saved_errno SafetyViolation = 18%N /\
  saved_errno NotImplemented = 38%N /\ saved_errno NotSupported = 0%N /\ saved_errno InternalError = 0%N.
Proof. repeat split. Qed.

Check C16_id_not_errno :
  forall E (t : table E) o t' id,
    draws_ok E o -> step E t o = (t', RStored E id) -> id < -4095 /\ INT_MIN <= id.
Check C16_unique_live :
  forall E (t : table E) draws e t' id,
    step E t (OStore E draws e) = (t', RStored E id) -> tlookup E id t = None.

(* non-vacuity: a concrete history with a collision in the draw stream *)
Example C16_history :
  snd (run nat [] [OStore nat [-5000; -6000] 1%nat; OStore nat [-5000; -6000] 2%nat; OTake nat (-5000);
                   OTake nat (-5000); OStore nat [-5000] 3%nat; OTake nat (-6000)])
  = [RStored nat (-5000); RStored nat (-6000); RTaken nat (Some 1%nat); RTaken nat None;
     RStored nat (-5000); RTaken nat (Some 2%nat)].
Proof. reflexivity. Qed.

(* the model's store and take are atomic steps; in the source each is one critical
   section of ERROR_MAP (one lock acquisition around entry() / remove()) -- a fact T0
   re-reads from src/capi/error.rs on every run *)
Theorem C16_ops_atomic_in_source : ERRTABLE_OPS_ATOMIC = true.
Proof. reflexivity. Qed.

Print Assumptions C16_id_not_errno.
Print Assumptions C16_unique_live.
Print Assumptions C16_take_exact_once.
Print Assumptions C16_refines_map.
Print Assumptions C16_errno_table.
Print Assumptions C16_ops_atomic_in_source.
