(* C07 -- procfs lookups stay inside procfs and follow only the requested final link.
   All statements are for all kernel answers. *)
From PV Require Import Discipline ProgTac DisciplineProofs FaultProofs Hoare ProcfsProps EffectProofs.

(* creation flags (O_CREAT, O_EXCL, O_TMPFILE) are refused: the resolver answers
   InvalidArgument without issuing a system call, open never succeeds, and
   open_follow refuses before doing anything at all *)
Theorem C07_creat_refused :
  forall fz cfg use root p fl rf fuel h base sub,
    creation_flags fl ->
    presolve fz cfg use root p fl rf = Ret (Err InvalidArgument) /\
    popen_follow fz cfg fuel h base sub fl = Ret (Err InvalidArgument) /\
    okp TC TS is_Err (popen fz cfg fuel h base sub fl).
Proof.
  intros. repeat split; [apply presolve_refuses|apply popen_follow_refuses|apply popen_refuses]; assumption.
Qed.

(* a ".." component never leaves procfs through the emulated resolver: the
   lookup cannot succeed (the call it ends in is EXDEV), whatever the tree is and
   also when the ".." sits behind symlinks that are expanded on the way *)
Theorem C07_dotdot_never_succeeds :
  forall fz root path fl rf,
    In [DOT; DOT] (raw_components path) -> okp TC TS is_Err (opath_resolve fz root path fl rf).
Proof.
  intros fz root path fl rf Hin. unfold opath_resolve.
  apply rets_bind. intros [m|e]; [|auto with errs].
  apply rets_bind. intros [cur|e]; [|auto with errs].
  apply pwalk_dotdot. exact Hin.
Qed.

(* ProcfsHandle::open and readlink: every openat(2) they issue carries O_NOFOLLOW (or names "." /
   ".."); [nofollow_b] says nothing of openat2 calls, which C05 confines by their resolve flags *)
Theorem C07_open_never_follows :
  forall fz cfg fuel h base sub fl,
    real_fd (ph_fd h) = true ->
    all_calls Pnf (popen fz cfg fuel h base sub fl) /\ all_calls Pnf (preadlink fz cfg fuel h base sub).
Proof.
  intros. split; eapply ac_weaken; try (eapply okp_all_calls; first [apply (popen_ok Jd)|apply (preadlink_ok Jd)]; eassumption);
    intros c [_ Hc]; exact Hc.
Qed.

(* open_follow follows exactly the trailing component: the only open that may
   lack O_NOFOLLOW is issued right after the mount-id check (statx) of exactly
   that (parent directory, final name) pair; everything before it is O_NOFOLLOW *)
Theorem C07_open_follow_exactly_trailing :
  forall fz cfg fuel h base sub fl hist0,
    real_fd (ph_fd h) = true ->
    spec follow_ok TrueQ hist0 (popen_follow fz cfg fuel h base sub fl).
Proof. intros. apply popen_follow_dominated. assumption. Qed.

Check C07_creat_refused :
  forall fz cfg use root p fl rf fuel h base sub,
    creation_flags fl ->
    presolve fz cfg use root p fl rf = Ret (Err InvalidArgument) /\
    popen_follow fz cfg fuel h base sub fl = Ret (Err InvalidArgument) /\
    okp TC TS is_Err (popen fz cfg fuel h base sub fl).
Check C07_dotdot_never_succeeds :
  forall fz root path fl rf,
    In [DOT; DOT] (raw_components path) -> okp TC TS is_Err (opath_resolve fz root path fl rf).
Check C07_open_follow_exactly_trailing :
  forall fz cfg fuel h base sub fl hist0,
    real_fd (ph_fd h) = true ->
    spec follow_ok TrueQ hist0 (popen_follow fz cfg fuel h base sub fl).

Example C07_creation_flags_nonvacuous :
  creation_flags (N.lor O_RDWR O_TMPFILE) /\ creation_flags (N.lor O_WRONLY O_CREAT) /\ ~ creation_flags O_DIRECTORY.
Proof.
  repeat split; [right; right; reflexivity|left; reflexivity|].
  intros [H|[H|H]]; discriminate H.
Qed.

(* whatever flags the caller passes, a procfs operation never issues a call that creates or
   changes anything (mkdirat, mknodat, unlinkat, linkat, symlinkat, renameat(2), open with
   O_CREAT): creation flags never reach the kernel -- also not through the retry on a fresh
   handle, nor through open_follow's final open of the magic-link *)
Theorem C07_procfs_ops_change_nothing :
  forall fz cfg fuel h base sub flags,
    calls_le eff 0 (popen fz cfg fuel h base sub flags) /\
    calls_le eff 0 (popen_follow fz cfg fuel h base sub flags) /\
    calls_le eff 0 (preadlink fz cfg fuel h base sub).
Proof. intros. repeat split; [apply popen_ne|apply popen_follow_ne|apply preadlink_ne]. Qed.

Print Assumptions C07_creat_refused.
Print Assumptions C07_dotdot_never_succeeds.
Print Assumptions C07_open_never_follows.
Print Assumptions C07_open_follow_exactly_trailing.
Print Assumptions C07_procfs_ops_change_nothing.
