(* C10 -- a failing system call anywhere inside an operation yields a clean error.
   All statements quantify over every kernel answer at every call, i.e. over
   every fault plan (single faults, repeated EAGAIN, fd exhaustion, ...). *)
From PV Require Import Discipline ProgTac DisciplineProofs OpathDisc RootDisc FaultProofs.

(* No operation can panic except at the two sites of [known_sites]:
   site 1 = "at least one candidate /proc/thread-self path should work" (all
   three stat probes fail; reachable, see the witness below), site 5 = Rc::try_unwrap in
   the O_PATH resolver.  No theorem excludes site 5: OpathBal shows the reference count
   to be 1 at that point under the premises of the balance judgement (the kernel never
   hands out a descriptor number in use), which is not a statement about [only_panics].
   In particular the unreachable!() of openat2::resolve_partial, the expect() on fstat in
   try_from_fd and the expect() of path_split can not fire, whatever fails. *)
Theorem C10_panic_sites_root :
  forall fz cfg pfuel gh ps rs root path path2 nofollow ty flags mode isdir rflags rfuel,
    rfd (ph_fd gh) -> rfd root ->
    only_panics known_sites (r_resolve fz cfg pfuel gh ps rs root path nofollow) /\
    only_panics known_sites (r_resolve_partial fz cfg pfuel gh ps rs root path nofollow) /\
    only_panics known_sites (r_open fz cfg pfuel gh ps rs root path flags) /\
    only_panics known_sites (root_readlink fz cfg pfuel gh ps rs root path) /\
    only_panics known_sites (root_create fz cfg pfuel gh ps rs root path ty) /\
    only_panics known_sites (root_create_file fz cfg pfuel gh ps rs root path flags mode) /\
    only_panics known_sites (root_remove_inode fz cfg pfuel gh ps rs root path isdir) /\
    only_panics known_sites (root_rename fz cfg pfuel gh ps rs root path path2 rflags) /\
    only_panics known_sites (root_remove_all fz cfg pfuel gh ps rfuel rs root path) /\
    only_panics known_sites (root_mkdir_all fz cfg pfuel gh ps rs root path mode).
Proof.
  intros. repeat split; eapply okp_known;
    [apply (r_resolve_ok Jd)|apply (r_resolve_partial_ok Jd)|apply r_open_ok|apply root_readlink_ok|apply root_create_ok
    |apply root_create_file_ok|apply root_remove_inode_ok|apply root_rename_ok|apply root_remove_all_ok
    |apply root_mkdir_all_ok]; assumption.
Qed.

Theorem C10_panic_sites_procfs :
  forall fz cfg fuel h base sub flags fd,
    rfd (ph_fd h) -> rfd fd ->
    only_panics known_sites (popen fz cfg fuel h base sub flags) /\
    only_panics known_sites (popen_follow fz cfg fuel h base sub flags) /\
    only_panics known_sites (preadlink fz cfg fuel h base sub) /\
    only_panics known_sites (reopen fz cfg fuel h fd flags) /\
    only_panics known_sites (procfs_new fz cfg) /\
    only_panics known_sites (procfs_new_unmasked fz cfg).
Proof.
  intros. repeat split; eapply okp_known;
    [apply (popen_ok Jd)|apply (popen_follow_ok Jd)|apply (preadlink_ok Jd)|apply (reopen_ok Jd)|apply (procfs_new_ok Jd)
    |apply (procfs_new_unmasked_ok Jd)]; assumption.
Qed.

(* openat2 reporting EAGAIN: retried at most OPENAT2_RETRIES times (gen/Consts.v) ... *)
Theorem C10_eagain_bounded :
  forall fz root path fl rs,
    calls_le is_openat2 (N.to_nat OPENAT2_RETRIES) (k_resolve_loop fz (N.to_nat OPENAT2_RETRIES) root path fl rs) /\
    calls_le is_openat2 (N.to_nat OPENAT2_OPEN_RETRIES) (k_open_loop fz (N.to_nat OPENAT2_OPEN_RETRIES) root path fl rs) /\
    calls_le is_openat2 (N.to_nat PROCFS_OPENAT2_RETRIES) (openat2_retry fz (N.to_nat PROCFS_OPENAT2_RETRIES) root path fl rs).
Proof. intros. repeat split; [apply k_resolve_loop_bounded|apply openat2_retry_bounded|apply openat2_retry_bounded]. Qed.

(* ... and it never surfaces as an OS error: a lookup or one-shot open through
   the kernel backend ends with a descriptor, another error, or SafetyViolation *)
Theorem C10_eagain_never_surfaces :
  forall fz cfg root path rf nf fl,
    okp TC TS not_eagain (k_resolve fz cfg root path rf nf) /\
    okp TC TS not_eagain (k_open fz cfg root path rf fl) /\
    okp TC TS not_eagain (openat2_resolve fz cfg root path fl rf).
Proof. intros. repeat split; [apply k_resolve_no_eagain|apply k_open_no_eagain|apply openat2_resolve_no_eagain]. Qed.

(* ... never as a partial result *)
Theorem C10_partial_never_from_eagain :
  forall fz cfg root path rf nf,
    okp TC TS partial_not_from_violation (k_resolve_partial fz cfg root path rf nf).
Proof.
  intros fz cfg root path rf nf. unfold k_resolve_partial.
  eapply okp_bind; [apply k_resolve_no_eagain|]. intros [fd|e0] Hr; [constructor; exact I|].
  (* down the ancestors, the last error is never EAGAIN: each comes from k_resolve *)
  assert (H0 : e0 <> OsError EAGAIN) by (intro; subst; apply Hr; reflexivity).
  revert H0. generalize (partial_ancestors path) e0. intro anc.
  induction anc as [|[p rem] rest IH]; intros last Hlast.
  - destruct PARTIAL_UNREACHABLE_PANICS; constructor; exact I.
  - destruct (is_safety_violation last) eqn:Esv; [constructor; exact I|].
    eapply okp_bind; [apply k_resolve_no_eagain|]. intros [fd|e] Hr2.
    + constructor. split; [exact Esv|exact Hlast].
    + apply IH. intro; subst; apply Hr2; reflexivity.
Qed.

Theorem C10_mntid_fail_closed :
  forall a, opt_n_eqb (Some a) None = false /\ opt_n_eqb None (Some a) = false.
Proof. split; reflexivity. Qed.

(* site 1 is reachable:
   every thread-self candidate probe fails => ProcfsBase::into_path panics *)
Example C10_thread_self_panic_witness :
  exists answers : list resp,
    run_trace (into_path 1 5 ProcThreadSelf)
      (combine [Gettid; Fstatat 5 (b "thread-self") FSTATAT_FLAGS; Gettid;
                Fstatat AT_FDCWD (b "/proc/thread-self") FSTATAT_FLAGS;
                Readlink (b "/proc/thread-self/fd/5");
                Fstatat 5 (b "self/task/7") FSTATAT_FLAGS; Gettid;
                Fstatat AT_FDCWD (b "/proc/thread-self") FSTATAT_FLAGS;
                Readlink (b "/proc/thread-self/fd/5");
                Fstatat 5 (b "self") FSTATAT_FLAGS; Gettid;
                Fstatat AT_FDCWD (b "/proc/thread-self") FSTATAT_FLAGS;
                Readlink (b "/proc/thread-self/fd/5")] answers) 0
    = RPanic PANIC_THREAD_SELF 13.
Proof.
  exists [RNum 7; RErr EACCES; RNum 7; RStat 0 0 0 0; RBytes []; RErr EACCES; RNum 7; RStat 0 0 0 0; RBytes [];
          RErr EACCES; RNum 7; RStat 0 0 0 0; RBytes []].
  vm_compute. reflexivity.
Qed.

Check C10_eagain_bounded :
  forall fz root path fl rs,
    calls_le is_openat2 (N.to_nat OPENAT2_RETRIES) (k_resolve_loop fz (N.to_nat OPENAT2_RETRIES) root path fl rs) /\
    calls_le is_openat2 (N.to_nat OPENAT2_OPEN_RETRIES) (k_open_loop fz (N.to_nat OPENAT2_OPEN_RETRIES) root path fl rs) /\
    calls_le is_openat2 (N.to_nat PROCFS_OPENAT2_RETRIES) (openat2_retry fz (N.to_nat PROCFS_OPENAT2_RETRIES) root path fl rs).
Check C10_eagain_never_surfaces :
  forall fz cfg root path rf nf fl,
    okp TC TS not_eagain (k_resolve fz cfg root path rf nf) /\
    okp TC TS not_eagain (k_open fz cfg root path rf fl) /\
    okp TC TS not_eagain (openat2_resolve fz cfg root path fl rf).
Check C10_partial_never_from_eagain :
  forall fz cfg root path rf nf,
    okp TC TS partial_not_from_violation (k_resolve_partial fz cfg root path rf nf).

Print Assumptions C10_panic_sites_root.
Print Assumptions C10_panic_sites_procfs.
Print Assumptions C10_eagain_bounded.
Print Assumptions C10_eagain_never_surfaces.
Print Assumptions C10_partial_never_from_eagain.
Print Assumptions C10_mntid_fail_closed.
