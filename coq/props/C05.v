(* C05 -- only single, non-followed components are ever handed to the kernel.
   Each theorem projects the calls out of the judgement [okp Pdn allowed_panic] proved
   program by program in DisciplineProofs / OpathDisc / RootDisc (instance [Jd]). *)
From PV Require Import Discipline ProgTac DisciplineProofs OpathDisc RootDisc.

(* Every call of every in-root lookup satisfies the per-call discipline
   [disc_b] and forbids following ([nofollow_b]) -- for all kernel answers,
   hence all trees, faults, attackers, feature sets, success and error paths. *)
Theorem C05_lookups :
  forall fz cfg pfuel gh ps rs root path nofollow,
    rfd (ph_fd gh) -> rfd root ->
    all_calls Pdn (r_resolve fz cfg pfuel gh ps rs root path nofollow) /\
    all_calls Pdn (r_resolve_partial fz cfg pfuel gh ps rs root path nofollow) /\
    all_calls Pdn (root_readlink fz cfg pfuel gh ps rs root path).
Proof.
  intros. repeat split; eapply okp_all_calls;
    [apply (r_resolve_ok Jd)|apply (r_resolve_partial_ok Jd)|apply root_readlink_ok]; assumption.
Qed.

(* one-shot open: disciplined; the only open that may lack O_NOFOLLOW is the
   re-open of the resolved handle through procfs (see C09_single_follow_site) *)
Theorem C05_open :
  forall fz cfg pfuel gh ps rs root path flags,
    rfd (ph_fd gh) -> rfd root ->
    all_calls Pd (r_open fz cfg pfuel gh ps rs root path flags).
Proof. intros. eapply okp_all_calls. apply r_open_ok; assumption. Qed.

Theorem C05_mutators :
  forall fz cfg pfuel gh ps rs root path path2 ty flags mode isdir rflags rfuel,
    rfd (ph_fd gh) -> rfd root ->
    all_calls Pdn (root_create fz cfg pfuel gh ps rs root path ty) /\
    all_calls Pdn (root_create_file fz cfg pfuel gh ps rs root path flags mode) /\
    all_calls Pdn (root_remove_inode fz cfg pfuel gh ps rs root path isdir) /\
    all_calls Pdn (root_rename fz cfg pfuel gh ps rs root path path2 rflags) /\
    all_calls Pdn (root_remove_all fz cfg pfuel gh ps rfuel rs root path) /\
    all_calls Pd (root_mkdir_all fz cfg pfuel gh ps rs root path mode).
Proof.
  intros. repeat split; eapply okp_all_calls;
    [apply root_create_ok|apply root_create_file_ok|apply root_remove_inode_ok
    |apply root_rename_ok|apply root_remove_all_ok|apply root_mkdir_all_ok]; assumption.
Qed.

Theorem C05_procfs :
  forall fz cfg fuel h base sub flags,
    rfd (ph_fd h) ->
    all_calls Pdn (popen fz cfg fuel h base sub flags) /\
    all_calls Pdn (preadlink fz cfg fuel h base sub) /\
    all_calls Pd (popen_follow fz cfg fuel h base sub flags).
Proof.
  intros. repeat split; eapply okp_all_calls;
    [apply (popen_ok Jd)|apply (preadlink_ok Jd)|apply (popen_follow_ok Jd)]; assumption.
Qed.

Theorem C05_reopen :
  forall fz cfg fuel gh fd flags,
    rfd (ph_fd gh) -> rfd fd -> all_calls Pd (reopen fz cfg fuel gh fd flags).
Proof. intros. eapply okp_all_calls. apply (reopen_ok Jd); assumption. Qed.

(* the procfs constructors: the closed list of exempt absolute-path calls
   (fsopen("proc"), open_tree(AT_FDCWD,"/proc"), openat(AT_FDCWD,"/proc")) is
   part of [disc_b]; every descriptor they create is close-on-exec *)
Theorem C05_constructors :
  forall fz cfg,
    all_calls Pdn (procfs_new fz cfg) /\ all_calls Pdn (procfs_new_unmasked fz cfg).
Proof.
  intros. split; eapply okp_all_calls; [apply (procfs_new_ok Jd)|apply (procfs_new_unmasked_ok Jd)].
Qed.

(* "never becomes a controlling terminal": the flag word of EVERY openat2 call the library can make
   (syscalls::openat2 adds O_CLOEXEC always, O_NOCTTY unless O_PATH is set -- both regenerated from
   the source by T0) is close-on-exec and carries O_NOCTTY or O_PATH; the same two conditions are
   part of [disc_b], i.e. of every theorem above (F-R: Root::open_subpath on the openat2 backend) *)
Theorem C05_openat2_cloexec_never_ctty :
  forall fl, has (openat2_flags fl) O_CLOEXEC = true /\
             (has (openat2_flags fl) O_NOCTTY || has (openat2_flags fl) O_PATH) = true /\
             (forall c, has fl c = true -> has (openat2_flags fl) c = true).
Proof. intro fl. split; [apply openat2_flags_cloexec|split; [apply openat2_flags_noctty|intro c; apply openat2_flags_keeps]]. Qed.

Check C05_lookups :
  forall fz cfg pfuel gh ps rs root path nofollow,
    rfd (ph_fd gh) -> rfd root ->
    all_calls Pdn (r_resolve fz cfg pfuel gh ps rs root path nofollow) /\
    all_calls Pdn (r_resolve_partial fz cfg pfuel gh ps rs root path nofollow) /\
    all_calls Pdn (root_readlink fz cfg pfuel gh ps rs root path).
Check C05_open :
  forall fz cfg pfuel gh ps rs root path flags,
    rfd (ph_fd gh) -> rfd root ->
    all_calls Pd (r_open fz cfg pfuel gh ps rs root path flags).
Check C05_mutators :
  forall fz cfg pfuel gh ps rs root path path2 ty flags mode isdir rflags rfuel,
    rfd (ph_fd gh) -> rfd root ->
    all_calls Pdn (root_create fz cfg pfuel gh ps rs root path ty) /\
    all_calls Pdn (root_create_file fz cfg pfuel gh ps rs root path flags mode) /\
    all_calls Pdn (root_remove_inode fz cfg pfuel gh ps rs root path isdir) /\
    all_calls Pdn (root_rename fz cfg pfuel gh ps rs root path path2 rflags) /\
    all_calls Pdn (root_remove_all fz cfg pfuel gh ps rfuel rs root path) /\
    all_calls Pd (root_mkdir_all fz cfg pfuel gh ps rs root path mode).
Check C05_procfs :
  forall fz cfg fuel h base sub flags,
    rfd (ph_fd h) ->
    all_calls Pdn (popen fz cfg fuel h base sub flags) /\
    all_calls Pdn (preadlink fz cfg fuel h base sub) /\
    all_calls Pd (popen_follow fz cfg fuel h base sub flags).
Check C05_reopen :
  forall fz cfg fuel gh fd flags,
    rfd (ph_fd gh) -> rfd fd -> all_calls Pd (reopen fz cfg fuel gh fd flags).
Check C05_constructors :
  forall fz cfg,
    all_calls Pdn (procfs_new fz cfg) /\ all_calls Pdn (procfs_new_unmasked fz cfg).

(* non-vacuity: the discipline predicate is not trivially true, and the
   hypotheses are satisfiable *)
Example C05_predicate_rejects :
  disc_b (Openat 5 (b "a/b") (N.lor O_CLOEXEC O_NOFOLLOW) 0) = false /\
  disc_b (Openat AT_FDCWD (b "/etc") (N.lor O_CLOEXEC O_NOFOLLOW) 0) = false /\
  disc_b (Openat 5 (b "a") O_NOFOLLOW 0) = false /\
  nofollow_b (Openat 5 (b "a") O_CLOEXEC 0) = false /\
  disc_b (OpenTree AT_FDCWD (b "/proc") OPEN_TREE_CLONE) = false /\
  disc_b (Openat2 5 (b "a/b") O_CLOEXEC 0 RESOLVE_NO_MAGICLINKS) = false /\
  rfd 3.
Proof. repeat split; reflexivity. Qed.

Print Assumptions C05_lookups.
Print Assumptions C05_open.
Print Assumptions C05_mutators.
Print Assumptions C05_procfs.
Print Assumptions C05_reopen.
Print Assumptions C05_constructors.
Print Assumptions C05_openat2_cloexec_never_ctty.
