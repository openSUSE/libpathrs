(* C01 -- in-root lookups match kernel RESOLVE_IN_ROOT semantics for every tree and path.
   [kwalk] is the reference semantics of openat2(RESOLVE_IN_ROOT|NO_MAGICLINKS
   [|NO_SYMLINKS], O_PATH[|O_NOFOLLOW]) -- validated against the running kernel on
   every run (tie T2) -- and [ewalk] is what the emulated resolver computes on a
   tree that is not being modified -- validated against the library on every run.
   The theorems hold for EVERY well-formed file system [s] (any shape, any link
   bodies), every path, both trailing-symlink modes, with and without NO_SYMLINKS. *)
From PV Require Import FSModel FSProofs.

(* the emulated backend computes exactly the kernel's answer whenever the kernel
   needs at most its 40 link traversals (beyond that: known finding F-H) *)
Theorem C01_emu_eq_kernel :
  forall s df, wf s df -> forall p nf nosym,
    (EMPTY_PATH_IS_ENOENT = true \/ p <> []) ->
    kwalk s p nf nosym <> WBudget ->
    ewalk s p nf nosym = kwalk s p nf nosym.
Proof. exact emu_eq_kernel. Qed.

(* a successful lookup never yields an object outside the root's tree *)
Theorem C01_result_in_root :
  forall s df, wf s df -> forall p nf nosym o,
    (kwalk s p nf nosym = WOk o -> reach s o) /\ (ewalk s p nf nosym = WOk o -> reach s o).
Proof. intros s df H p nf nosym o. split; [apply (kernel_in_root s df H)|apply (emu_in_root s df H)]. Qed.

(* the empty path is ENOENT for both walks: the emulated one by gen/Consts.v EMPTY_PATH_IS_ENOENT (F-E) *)
Theorem C01_empty_path : forall s nf nosym, ewalk s [] nf nosym = WErr E_NOENT /\ kwalk s [] nf nosym = WErr E_NOENT.
Proof. intros. split; reflexivity. Qed.

(* the walks are total functions by structural recursion on the link budget and
   the component queue: a lookup through a symlink loop ends -- with ELOOP -- after a
   bounded number of steps, on every file system *)
Example C01_loop_eloop :
  let s := build [MkLnk [b "loop"] (b "loop"); MkLnk [b "a"] (b "/b"); MkLnk [b "b"] (b "a")] in
  wf_b s = true /\
  enc_wres (kwalk s (b "loop") false false) = [2; 40]%Z /\ enc_wres (ewalk s (b "loop") false false) = [2; 40]%Z /\
  enc_wres (kwalk s (b "a/x") false false) = [2; 40]%Z /\ enc_wres (ewalk s (b "a/x") true false) = [2; 40]%Z /\
  kwalk s (b "loop") true false = WOk 1%nat.
Proof. vm_compute. repeat split. Qed.

(* non-vacuity: a concrete tree with escaping / absolute links and ".." meets [wf],
   and the walks clamp at the root *)
Example C01_concrete :
  let s := build [MkDir [b "a"]; MkDir [b "a"; b "b"]; MkFile [b "a"; b "b"; b "f"]; MkLnk [b "esc"] (b "../../..");
                  MkLnk [b "a"; b "up"] (b "../a/b"); MkLnk [b "abs"] (b "/a")] in
  wf_b s = true /\
  kwalk s (b "esc/a/up/../b/f") false false = WOk 3%nat /\
  ewalk s (b "esc/a/up/../b/f") false false = WOk 3%nat /\
  ewalk s (b "abs/../../..") false false = WOk 0%nat /\
  ewalk s (b "a/b/f/") false false = WErr E_NOTDIR.
Proof. vm_compute. repeat split. Qed.

Theorem C01_wf_check_sound : forall s, wf_b s = true -> wf s (depthf s).
Proof.
  intros s H. unfold wf_b in H. apply andb_true_iff in H as [H H3]. apply andb_true_iff in H as [H1 H2].
  apply Nat.eqb_eq in H2. rewrite forallb_forall in H3.
  (* every entry found by a lookup is in the list the check ran over *)
  constructor; [exact H1|exact H2| |]; intros d n c Hl; destruct (find_ent_in _ _ _ _ Hl) as [n' Hin];
    specialize (H3 _ Hin); cbn [ent_ok] in H3; apply andb_true_iff in H3 as [Hdir H3].
  - intro Hd. rewrite Hd in H3. apply andb_true_iff in H3 as [Ha Hb]. apply Nat.eqb_eq in Ha, Hb. split; assumption.
  - exact Hdir.
Qed.

(* the recorded finding F-H is real in the model: 41 links resolve under emulation only *)
Example C01_link_budget_witness :
  let chain := MkFile [b "t"] :: MkLnk [b "c0"] (b "t") ::
               map (fun i => MkLnk [b "c" ++ dec (N.of_nat (S i))] (b "c" ++ dec (N.of_nat i))) (seq 0 41) in
  let s := build chain in
  kwalk s (b "c41") false false = WBudget /\ ewalk s (b "c41") false false = WOk 1%nat.
Proof. vm_compute. split; reflexivity. Qed.

(* The statements once more, as [Check]s: the build fails if a theorem above comes to say less
   than what is written here (DESIGN.md section 2). *)
Check C01_emu_eq_kernel :
  forall s df, wf s df -> forall p nf nosym,
    (EMPTY_PATH_IS_ENOENT = true \/ p <> []) ->
    kwalk s p nf nosym <> WBudget ->
    ewalk s p nf nosym = kwalk s p nf nosym.
Check C01_result_in_root :
  forall s df, wf s df -> forall p nf nosym o,
    (kwalk s p nf nosym = WOk o -> reach s o) /\ (ewalk s p nf nosym = WOk o -> reach s o).

Print Assumptions C01_emu_eq_kernel.
Print Assumptions C01_result_in_root.
Print Assumptions C01_empty_path.
Print Assumptions C01_wf_check_sound.

(* ---- the library's program, not only the pure walk ------------------------------------
   [resolve_gen] is the model program of opath::resolve (OpathM.opath_resolve_root is
   its instance for check_current: C01_program_is_the_model) -- the program that tie
   T1 replays against the real library call by call.  Executed on the static kernel
   of theories/Static.v (validated against the running kernel by tie T2'), over ANY
   well-formed tree and any path, it returns a descriptor for exactly the object the
   pure walk [ewalk] ends on, or that walk's errno (C01_program_refines_walk) -- hence,
   within the kernel's link budget, the kernel's RESOLVE_IN_ROOT answer
   (C01_program_eq_kernel) -- for every check routine that succeeds when the walk is
   where it believes to be. *)
From PV Require Import Static StaticProofs.

Theorem C01_program_refines_walk :
  forall s rp F df, wf s df -> links_ok s -> closed s ->
  forall fz chk, fz <> 0%nat -> chk_static_ok s rp F chk ->
  forall ps nosym nf t root path, Frame s F t -> tget t root = Some ROOT -> has_nul path = false ->
    match ewalk s path nf nosym with
    | WOk o => exists t' fd, run s rp t (resolve_gen fz ps chk root path nosym nf) = Done t' (Ok fd) /\ tget t' fd = Some o
    | WErr n => exists t', run s rp t (resolve_gen fz ps chk root path nosym nf) = Done t' (Err (OsError n))
    | WBudget => exists t', run s rp t (resolve_gen fz ps chk root path nosym nf) = Done t' (Err (OsError ELOOP))
    end.
Proof. intros s rp F df Hwf Hl Hcl fz chk Hfz Hchk ps nosym nf t root path. exact (resolve_static s rp F Hcl fz Hfz chk Hchk df Hwf Hl ps nosym nf t root path). Qed.

Theorem C01_program_eq_kernel :
  forall s rp F df, wf s df -> links_ok s -> closed s ->
  forall fz chk, fz <> 0%nat -> chk_static_ok s rp F chk ->
  forall ps nosym nf t root path, Frame s F t -> tget t root = Some ROOT -> has_nul path = false ->
    (EMPTY_PATH_IS_ENOENT = true \/ path <> []) ->
    match kwalk s path nf nosym with
    | WOk o => exists t' fd, run s rp t (resolve_gen fz ps chk root path nosym nf) = Done t' (Ok fd) /\ tget t' fd = Some o
    | WErr n => exists t', run s rp t (resolve_gen fz ps chk root path nosym nf) = Done t' (Err (OsError n))
    | WBudget => True          (* more than 40 link traversals: known finding F-H *)
    end.
Proof.
  intros s rp F df Hwf Hl Hcl fz chk Hfz Hchk ps nosym nf t root path Hfr Hroot Hnul Hp.
  pose proof (C01_program_refines_walk s rp F df Hwf Hl Hcl fz chk Hfz Hchk ps nosym nf t root path Hfr Hroot Hnul) as H.
  destruct (kwalk s path nf nosym) as [o|n|] eqn:Ek; [| |exact I];
    rewrite (emu_eq_kernel s df Hwf path nf nosym Hp) in H by (rewrite Ek; discriminate); rewrite Ek in H; exact H.
Qed.

Theorem C01_program_is_the_model :
  forall fz o2 pfuel gh ps root path nosym nf,
    opath_resolve_root fz o2 pfuel gh ps root path nosym nf =
    resolve_gen fz ps (check_current fz o2 pfuel gh) root path nosym nf.
Proof. exact resolve_is_gen. Qed.

(* the real program, with the premise reduced to the kernel's d_path contract: whenever
   as_unsafe_path -- the library's reading of /proc/thread-self/fd/N -- returns, for a
   descriptor open on the object with path [exp] below the root, an absolute path made of
   the root directory's components followed by [exp], opath::resolve itself (check_current
   included) returns the walk's answer.  (The premise is discharged in C01_resolve_eq_walk, with
   and without openat2.) *)
Theorem C01_resolve_refines_walk :
  forall s rp F df rootcomps, wf s df -> links_ok s -> names_ok s -> closed s ->
  forall fz o2 pfuel gh, fz <> 0%nat -> getpath_ok s rp F rootcomps (as_unsafe_path fz o2 pfuel gh) ->
  forall ps nosym nf t root path, Frame s F t -> tget t root = Some ROOT -> has_nul path = false ->
    match ewalk s path nf nosym with
    | WOk o => exists t' fd, run s rp t (opath_resolve_root fz o2 pfuel gh ps root path nosym nf) = Done t' (Ok fd) /\ tget t' fd = Some o
    | WErr n => exists t', run s rp t (opath_resolve_root fz o2 pfuel gh ps root path nosym nf) = Done t' (Err (OsError n))
    | WBudget => exists t', run s rp t (opath_resolve_root fz o2 pfuel gh ps root path nosym nf) = Done t' (Err (OsError ELOOP))
    end.
Proof.
  intros s rp F df rc Hwf Hl Hn Hcl fz o2 pfuel gh Hfz Hg ps nosym nf t root path Hfr Hroot Hnul.
  rewrite resolve_is_gen.
  apply (C01_program_refines_walk s rp F df Hwf Hl Hcl fz _ Hfz (check_current_static s rp F rc _ Hn Hg) ps nosym nf t root path Hfr Hroot Hnul).
Qed.

(* ... and with nothing left open about check_current: Static.v models as much of procfs
   as as_unsafe_path needs (the handle's root, the thread directory, one magic-link per
   open descriptor whose readlink is the kernel's rendering of the object's path), and on
   it the library's own reading of /proc/thread-self/fd/N is proved to return root path +
   path -- through openat2 when the kernel has it (StaticProcfs.run_as_unsafe_path) and through
   the emulated procfs resolver when it has not (StaticProcfsEmu.run_as_unsafe_path_emu: the
   thread-self symlink followed component by component, every step's mount id verified, the
   magic-link re-opened with O_PATH|O_NOFOLLOW).  So the whole of opath::resolve -- walk, Rc
   bookkeeping, every check_current with its procfs round-trips -- returns what the kernel's
   walk returns, on every well-formed tree without hard links, with or without openat2.
   The premises after [wf] are properties of the tree alone. *)
From PV Require Import StaticProcfs StaticProcfsEmu.

Theorem C01_resolve_eq_walk :
  forall s rp df, wf s df -> links_ok s -> names_ok s -> closed s -> paths_found s -> paths_short s rp -> is_abs rp = true ->
  (* [o2]: is openat2 available?  The procfs handle resolves with it exactly when it is. *)
  forall fz pf gh o2, fz <> 0%nat -> ph_mnt gh = Some PROC_MNT -> ph_openat2 gh = o2 ->
  forall ps nosym nf t root path,
    Frame s [(ph_fd gh, PB s)] t -> tget t root = Some ROOT -> has_nul path = false ->
    match ewalk s path nf nosym with
    | WOk o => exists t' fd, run s rp t (opath_resolve_root fz o2 (S pf) gh ps root path nosym nf) = Done t' (Ok fd) /\ tget t' fd = Some o
    | WErr n => exists t', run s rp t (opath_resolve_root fz o2 (S pf) gh ps root path nosym nf) = Done t' (Err (OsError n))
    | WBudget => exists t', run s rp t (opath_resolve_root fz o2 (S pf) gh ps root path nosym nf) = Done t' (Err (OsError ELOOP))
    end.
Proof.
  intros s rp df Hwf Hl Hn Hcl Hpf Hps Habs fz pf gh o2 Hfz Hmnt Ho2 ps nosym nf t root path Hfr Hroot Hnul.
  apply (C01_resolve_refines_walk s rp _ df (CheckProofs.nf rp) Hwf Hl Hn Hcl fz o2 (S pf) gh Hfz
           (getpath_static_any s rp fz gh o2 pf Hfz Hmnt Ho2 (routes_any s rp fz o2 Hfz) Habs Hn Hpf Hps) ps nosym nf t root path Hfr Hroot Hnul).
Qed.

(* the real program, executed: tree with escaping / absolute links, '..' steps (each one
   checked through the procfs handle at descriptor 4), root at descriptor 5 *)
Example C01_resolve_runs :
  let s := FSModel.build [FSModel.MkDir [b "a"]; FSModel.MkDir [b "a"; b "b"]; FSModel.MkFile [b "a"; b "b"; b "f"]; FSModel.MkLnk [b "esc"] (b "../../..");
                  FSModel.MkLnk [b "a"; b "up"] (b "../a/b"); FSModel.MkLnk [b "abs"] (b "/a")] in
  let gh := {| ph_fd := 4; ph_mnt := Some PROC_MNT; ph_subset := false; ph_openat2 := true |} in
  let t := [(5%Z, ROOT); (4%Z, PB s)] in
  (match run s (b "/srv/root") t (opath_resolve_root 1 true 2 gh 1 5 (b "esc/a/up/../b/f") false false) with
   | Done t' (Ok fd) => (tget t' fd, length t')
   | _ => (None, 0%nat) end) = (Some 3%nat, 3%nat) /\
  (match run s (b "/srv/root") t (opath_resolve_root 1 true 2 gh 1 5 (b "a/../../abs/b/..") false false) with
   | Done t' (Ok fd) => tget t' fd
   | _ => None end) = Some 1%nat /\
  find_path s 3 = Some [b "a"; b "b"; b "f"].
Proof. vm_compute. repeat split. Qed.

(* the same with openat2 absent everywhere -- the configuration in which the emulated
   resolver is used in practice: check_current then reaches fd/N through the EMULATED procfs
   resolver (thread-self is a symlink it follows component by component, each step's mount id
   verified): the second case of C01_resolve_eq_walk, executed. *)
Example C01_resolve_runs_without_openat2 :
  let s := FSModel.build [FSModel.MkDir [b "a"]; FSModel.MkDir [b "a"; b "b"]; FSModel.MkFile [b "a"; b "b"; b "f"]; FSModel.MkLnk [b "esc"] (b "../../..");
                  FSModel.MkLnk [b "a"; b "up"] (b "../a/b"); FSModel.MkLnk [b "abs"] (b "/a")] in
  let gh := {| ph_fd := 4; ph_mnt := Some PROC_MNT; ph_subset := false; ph_openat2 := false |} in
  let t := [(5%Z, ROOT); (4%Z, PB s)] in
  (match run s (b "/srv/root") t (as_unsafe_path 1 false 2 gh 5) with
   | Done t' (Ok p) => (Some p, length t') | _ => (None, 0%nat) end) = (Some (b "/srv/root"), 2%nat) /\
  (match run s (b "/srv/root") t (opath_resolve_root 1 false 2 gh 1 5 (b "esc/a/up/../b/f") false false) with
   | Done t' (Ok fd) => (tget t' fd, length t')
   | _ => (None, 0%nat) end) = (Some 3%nat, 3%nat).
Proof. vm_compute. split; reflexivity. Qed.

(* non-vacuity: the premises are met by a concrete tree and check routine, and the
   program really runs to the kernel's answer there *)
Example C01_program_concrete :
  let s := FSModel.build [FSModel.MkDir [b "a"]; FSModel.MkDir [b "a"; b "b"]; FSModel.MkFile [b "a"; b "b"; b "f"]; FSModel.MkLnk [b "esc"] (b "../../..");
                  FSModel.MkLnk [b "a"; b "up"] (b "../a/b"); FSModel.MkLnk [b "abs"] (b "/a")] in
  let chk := fun (_ _ : Z) (_ : list bytes) => Ret (Ok tt) in
  wf_b s = true /\ chk_static_ok s (b "/srv/root") [] chk /\
  (match run s (b "/srv/root") [(5%Z, ROOT)] (resolve_gen 1 1 chk 5 (b "esc/a/up/../b/f") false false) with
   | Done t' (Ok fd) => tget t' fd
   | _ => None end) = Some 3%nat /\
  (match run s (b "/srv/root") [(5%Z, ROOT)] (resolve_gen 1 1 chk 5 (b "a/b/f/x") false false) with
   | Done _ (Err (OsError e)) => Some e
   | _ => None end) = Some E_NOTDIR.
Proof. split; [vm_compute; reflexivity|]. split; [intros t cur root exp o _ _ _ _; reflexivity|]. split; vm_compute; reflexivity. Qed.

Print Assumptions C01_program_refines_walk.
Print Assumptions C01_program_eq_kernel.
Print Assumptions C01_program_is_the_model.
Print Assumptions C01_resolve_refines_walk.
Print Assumptions C01_resolve_eq_walk.
