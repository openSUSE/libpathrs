(* C12 -- mkdir_all creates exactly the missing directories and converges under races.
   First part, for all kernel answers: the mode check, the discipline and balance of every
   call on either backend, no unknown panic, and the creation loop as ONE chain of mkdirat /
   openat(O_NOFOLLOW|O_DIRECTORY) (with its monitor over recorded traces).
   Second part, on the dynamic kernel model (theories/Dyn.v): the loop computes a pure function
   of the tree that only adds directories under names that did not exist; mkdir_all end to end
   on the kernel backend, and on either backend given what its partial lookup returned;
   completeness; racing creators converge and racing callers end in the same directory; the
   tree premises are invariants of every reachable tree.
   Left to the runs of tools/props/C12.py (DESIGN.md): the emulated backend's partial lookup
   (tied by the C04 differential and T1), modes / umask / setgid (not in the tree model), and
   environments that do more than create directories. *)
From PV Require Import Discipline ProgTac OpathDisc RootDisc FdBalance FdBalProofs RootBal OpathBal BeneathProofs MonitorProofs.

(* root.rs:952 and :962 test the mode twice, against 0o7777 (MKDIR_ALL_MASK1) and 0o1777
   (MKDIR_ALL_MASK2 = 1023); failing either is the same error, and the second test contains the first *)
Theorem C12_mode_checked :
  forall fz cfg pfuel gh ps rs root path mode,
    N.ldiff mode 1023 <> 0 ->
    root_mkdir_all fz cfg pfuel gh ps rs root path mode = Ret (Err InvalidArgument).
Proof.
  intros fz cfg pfuel gh ps rs root path mode H. unfold root_mkdir_all.
  destruct (negb (N.eqb (N.ldiff mode MKDIR_ALL_MASK1) 0)); [reflexivity|].
  assert (E : N.eqb (N.ldiff mode MKDIR_ALL_MASK2) 0 = false).
  { apply N.eqb_neq. exact H. }
  rewrite E. reflexivity.
Qed.

(* every mkdirat / openat it issues names one '/'-free component relative to a
   descriptor; every open forbids following except the verified re-open of the
   resolved prefix through procfs *)
Theorem C12_calls_disciplined :
  forall fz cfg pfuel gh ps rs root path mode,
    rfd (ph_fd gh) -> rfd root ->
    all_calls Pd (root_mkdir_all fz cfg pfuel gh ps rs root path mode).
Proof. intros. eapply okp_all_calls. apply root_mkdir_all_ok; assumption. Qed.

(* no descriptor is leaked on any path, the returned handle is the only new one *)
Theorem C12_balanced :
  forall fz cfg pfuel gh ps rs, res_ok fz cfg pfuel gh ps rs -> resp_ok fz cfg pfuel gh ps rs ->
    forall root path mode, bal (Rfd []) [] (root_mkdir_all fz cfg pfuel gh ps rs root path mode).
Proof. intros. apply root_mkdir_all_bal; assumption. Qed.

(* ... on either backend, no contract assumed (the emulated backend's partial lookup with its
   symlink stack of Rc handles included: OpathBal.v) *)
Theorem C12_balanced_all_backends :
  forall fz cfg pfuel gh ps rs root path mode, bal (Rfd []) [] (root_mkdir_all fz cfg pfuel gh ps rs root path mode).
Proof. intros. apply root_mkdir_all_bal; apply any_res_ok. Qed.

(* the directories are created as ONE chain, for all answers: mkdir_all is the argument checks,
   the partial lookup, the re-open of the deepest existing directory and then the loop
   [mk_parts] (C12_loop: by computation) over the remaining components, none of which is "",
   "." or ".."; in that loop every mkdirat is made on the directory the chain has reached,
   with a '/'-free name, and the only open is openat(that directory, that very name,
   O_NOFOLLOW|O_DIRECTORY), whose result is where the chain continues; nothing else changes
   the tree ([chain_ok], [chain] in proofs/BeneathProofs.v) *)
Theorem C12_creation_is_one_chain :
  forall fz mode (remaining : option bytes) current0,
    let parts := filter (fun p => negb (noop_part p)) (match remaining with Some rm => raw_components rm | None => [] end) in
    existsb is_dotdot parts = false ->
    chain (@anyQ (result Z ekind)) (current0, None) (mk_parts fz mode parts current0).
Proof. intros fz mode remaining current0 parts H. apply mk_parts_chain. apply mkdir_all_parts_ok. exact H. Qed.

(* the same judgement as an executable monitor over recorded traces (tools/props/C12.py evaluates
   [trace_chain], the monitor started at the first mkdirat, on the recorded calls) *)
Theorem C12_chain_monitor_sound :
  forall fz mode (remaining : option bytes) current0 t idx a n,
    let parts := filter (fun p => negb (noop_part p)) (match remaining with Some rm => raw_components rm | None => [] end) in
    existsb is_dotdot parts = false ->
    run_trace (mk_parts fz mode parts current0) t idx = RDone a n -> trace_chain_from t (current0, None) = true.
Proof. intros fz mode remaining current0 t idx a n parts H Hr. eapply chain_sound; [apply C12_creation_is_one_chain; exact H|exact Hr]. Qed.

Theorem C12_loop :
  forall fz cfg pfuel gh ps rs root path mode,
  root_mkdir_all fz cfg pfuel gh ps rs root path mode =
  (if negb (N.eqb (N.ldiff mode MKDIR_ALL_MASK1) 0) then Ret (Err InvalidArgument) else
   if negb (N.eqb (N.ldiff mode MKDIR_ALL_MASK2) 0) then Ret (Err InvalidArgument) else
   l <-? r_resolve_partial fz cfg pfuel gh ps rs root path false ;;
   r <- match l with
        | Complete fd => Ret (Ok (fd, None))
        | Partial fd remaining e =>
            if (match e with OsError n => N.eqb n ENOENT | _ => false end)
            then Ret (Ok (fd, Some remaining))
            else close fd ;;; Ret (Err e)
        end ;;
   match r with
   | Err e => Ret (Err e)
   | Ok (handle, remaining) =>
       r <- h_reopen fz cfg pfuel gh handle MKDIR_ALL_REOPEN_FLAGS ;;
       match r with
       | Err e => frozen fz handle ;;; close handle ;;; Ret (Err e)
       | Ok current0 =>
           close handle ;;;
           let parts := filter (fun p => negb (noop_part p)) (match remaining with Some rm => raw_components rm | None => [] end) in
           if existsb is_dotdot parts then close current0 ;;; Ret (Err (OsError ENOENT))
           else mk_parts fz mode parts current0
       end
   end).
Proof. intros. reflexivity. Qed.

Example C12_chain_examples :
  chain_ok (5%Z, None) (Mkdirat 5 (b "new") 493) /\ ~ chain_ok (5%Z, None) (Mkdirat 6 (b "new") 493) /\
  ~ chain_ok (5%Z, Some (b "new")) (Mkdirat 5 (b "other") 493) /\
  chain_ok (5%Z, Some (b "new")) (Openat 5 (b "new") (N.lor O_NOFOLLOW O_DIRECTORY) 0) /\
  ~ chain_ok (5%Z, Some (b "new")) (Openat 5 (b "new") O_DIRECTORY 0) /\
  ~ chain_ok (5%Z, Some (b "new")) (Openat 5 (b "evil") (N.lor O_NOFOLLOW O_DIRECTORY) 0) /\
  chain_step (5%Z, Some (b "new")) (Openat 5 (b "new") (N.lor O_NOFOLLOW O_DIRECTORY) 0) (RFd 9) = (9%Z, None).
Proof.
  unfold chain_ok. cbn [fst snd]. repeat split; try reflexivity; try discriminate.
  - intros (H & _). discriminate.
  - intros (_ & H & _). discriminate.
  - intros (_ & _ & H & _). discriminate.
  - intros (_ & H & _). discriminate.
Qed.

(* it cannot panic *)
Theorem C12_no_unknown_panic :
  forall fz cfg pfuel gh ps rs root path mode,
    rfd (ph_fd gh) -> rfd root ->
    only_panics FaultProofs.known_sites (root_mkdir_all fz cfg pfuel gh ps rs root path mode).
Proof. intros. eapply FaultProofs.okp_known. apply root_mkdir_all_ok; assumption. Qed.

Example C12_mode_examples : N.ldiff 511 1023 = 0 /\ N.ldiff 1023 1023 = 0 /\ N.ldiff 1024 1023 <> 0 /\ N.ldiff 16877 1023 <> 0.
Proof. repeat split; try reflexivity; discriminate. Qed.

(* ---- the functional statement, on the DYNAMIC kernel model (theories/Dyn.v) ---------------------
   [mk_spec] is a pure function of the tree: for each remaining component, mkdirat's effect
   (EEXIST tolerated) and then the directory now under that name, or the errno that ends the loop.
   1. the creation loop, executed, computes it; 2. what it does to any tree; 3. the partial lookup
   of the kernel backend as a pure function ([kpartial]: the first ancestor of the path that the
   kernel's in-root walk resolves); 4. RootRef::mkdir_all end to end on the kernel backend. *)
From PV Require DynMkdirAll.

Theorem C12_loop_computes_spec :
  forall rp fz, fz <> 0%nat -> forall mode ps s t cur o,
  DynMkdir.closed2 s -> Static.tget t cur = Some o -> (o < Dyn.NPB s)%nat -> Forall (fun p => Dyn.plain p = true) ps ->
  exists t',
    (forall x ob, x <> cur -> Static.tget t x = Some ob -> Static.tget t' x = Some (DynMkdir.rel s (fst (DynMkdir.mk_spec s o ps)) ob)) /\
    match snd (DynMkdir.mk_spec s o ps) with
    | inl c => exists fd,
        Dyn.drun rp {| Dyn.ds := s; Dyn.dt := t; Dyn.dseen := [] |} (mk_parts fz mode ps cur) =
          Dyn.DDone {| Dyn.ds := fst (DynMkdir.mk_spec s o ps); Dyn.dt := t'; Dyn.dseen := [] |} (Ok fd) /\
        Static.tget t' fd = Some c /\ (c < Dyn.NPB (fst (DynMkdir.mk_spec s o ps)))%nat /\
        (forall x, StaticBal.indom t' x -> x = fd \/ (StaticBal.indom t x /\ x <> cur)) /\ (ps = [] -> fd = cur)
    | inr e =>
        Dyn.drun rp {| Dyn.ds := s; Dyn.dt := t; Dyn.dseen := [] |} (mk_parts fz mode ps cur) =
          Dyn.DDone {| Dyn.ds := fst (DynMkdir.mk_spec s o ps); Dyn.dt := t'; Dyn.dseen := [] |} (Err (OsError e)) /\
        (forall x, StaticBal.indom t' x -> StaticBal.indom t x /\ x <> cur)
    end.
Proof. exact DynMkdir.mk_parts_dyn. Qed.

(* "nothing else in the tree was added, removed or modified; every component now exists":
   [extends] = the old tree plus new DIRECTORIES entered under names that did not exist -- also when
   the loop fails (of a failing run nothing more is stated) --; on success the result is the plain
   descent along the components in the new tree *)
Theorem C12_spec_post :
  forall ps s o, DynMkdir.closed2 s -> (o < length (FSModel.kinds s))%nat -> Forall (fun p => Dyn.plain p = true) ps ->
  DynMkdir.extends s (fst (DynMkdir.mk_spec s o ps)) /\ DynMkdir.closed2 (fst (DynMkdir.mk_spec s o ps)) /\
  match snd (DynMkdir.mk_spec s o ps) with
  | inl c => DynMkdir.descend_dirs (fst (DynMkdir.mk_spec s o ps)) o ps = Some c /\
             (FSModel.is_dir s o = true -> FSModel.is_dir (fst (DynMkdir.mk_spec s o ps)) c = true)
  | inr _ => True
  end.
Proof. exact DynMkdir.mk_spec_post. Qed.

Theorem C12_extends_changes_nothing_else :
  forall s s', DynMkdir.extends s s' ->
  (forall o, (o < length (FSModel.kinds s))%nat -> FSModel.kind_of s' o = FSModel.kind_of s o) /\
  (forall d n c, FSModel.lookup s d n = Some c -> FSModel.lookup s' d n = Some c) /\
  (length (FSModel.kinds s) <= length (FSModel.kinds s'))%nat /\
  (exists new, FSModel.ents s' = FSModel.ents s ++ new /\
               Forall (fun e => (length (FSModel.kinds s) <= Dyn.ent_obj e)%nat /\ FSModel.kind_of s' (Dyn.ent_obj e) = FSModel.KDir) new).
Proof. exact DynMkdir.extends_frame. Qed.

Theorem C12_partial_lookup_kernel_backend :
  forall s rp fz, fz <> 0%nat -> StaticProofs.closed s -> forall t root path rflags,
  Static.tget t root = Some FSModel.ROOT -> has_nul path = false ->
  Static.run s rp t (k_resolve_partial fz true root path rflags false) =
  match DynMkdirAll.kpartial s path (has (N.lor OPENAT2_RESOLVE_RESOLVE rflags) RESOLVE_NO_SYMLINKS) with
  | DynMkdirAll.KComplete o => Static.Done ((Static.fresh t, o) :: t) (Ok (Complete (Static.fresh t)))
  | DynMkdirAll.KPartial o rem l => Static.Done ((Static.fresh t, o) :: t) (Ok (Partial (Static.fresh t) rem (OsError l)))
  | DynMkdirAll.KFail e => Static.Done t (Err (OsError e))
  end.
Proof. exact DynMkdirAll.run_k_resolve_partial. Qed.

Theorem C12_mkdir_all_kernel_backend :
  forall s rp fz pfuel gh ps rs, fz <> 0%nat -> DynMkdir.closed2 s ->
  ph_mnt gh = Some Static.PROC_MNT -> ph_openat2 gh = true -> rs_kernel rs = true ->
  forall t root path mode o remaining exp,
  Static.tget t root = Some FSModel.ROOT -> Static.tget t (ph_fd gh) = Some (Static.PB s) -> has_nul path = false ->
  N.ldiff mode MKDIR_ALL_MASK1 = 0 -> N.ldiff mode MKDIR_ALL_MASK2 = 0 ->
  ((DynMkdirAll.kpartial s path (has (N.lor OPENAT2_RESOLVE_RESOLVE (rs_flags rs)) RESOLVE_NO_SYMLINKS) = DynMkdirAll.KComplete o /\ remaining = None) \/
   (exists rm, DynMkdirAll.kpartial s path (has (N.lor OPENAT2_RESOLVE_RESOLVE (rs_flags rs)) RESOLVE_NO_SYMLINKS) = DynMkdirAll.KPartial o rm ENOENT /\ remaining = Some rm)) ->
  FSModel.is_dir s o = true -> Static.find_path s o = Some exp -> N.leb READLINK_BUF (N.of_nat (length (Static.render rp exp))) = false ->
  existsb is_dotdot (DynMkdirAll.parts_of remaining) = false ->
  exists t',
    match snd (DynMkdir.mk_spec s o (DynMkdirAll.parts_of remaining)) with
    | inl c => exists fd,
        Dyn.drun rp {| Dyn.ds := s; Dyn.dt := t; Dyn.dseen := [] |} (root_mkdir_all fz true (S pfuel) gh ps rs root path mode) =
          Dyn.DDone {| Dyn.ds := fst (DynMkdir.mk_spec s o (DynMkdirAll.parts_of remaining)); Dyn.dt := t'; Dyn.dseen := [] |} (Ok fd) /\
        Static.tget t' fd = Some c /\ (forall x, StaticBal.indom t' x -> x = fd \/ StaticBal.indom t x)
    | inr e =>
        Dyn.drun rp {| Dyn.ds := s; Dyn.dt := t; Dyn.dseen := [] |} (root_mkdir_all fz true (S pfuel) gh ps rs root path mode) =
          Dyn.DDone {| Dyn.ds := fst (DynMkdir.mk_spec s o (DynMkdirAll.parts_of remaining)); Dyn.dt := t'; Dyn.dseen := [] |} (Err (OsError e)) /\
        (forall x, StaticBal.indom t' x -> StaticBal.indom t x)
    end.
Proof. exact DynMkdirAll.mkdir_all_kernel. Qed.

(* ---- C12, the whole statement (kernel backend, path with a missing tail) ------------------------
   On the dynamic kernel, over any tree: mkdir_all ends with the tree extended by new directories only
   (also when it fails); when it succeeds, the returned descriptor is open on a directory and that
   directory IS the kernel's in-root resolution of the path in the resulting tree. *)
From PV Require DynResolve.

Theorem C12_handle_is_resolution_in_resulting_tree :
  forall s s' path nosym o rm c,
  DynMkdir.closed2 s -> FSModel.is_dir s FSModel.ROOT = true -> path <> [] ->
  DynMkdirAll.kpartial s path nosym = DynMkdirAll.KPartial o rm ENOENT ->
  DynMkdir.extends s s' -> FSModel.is_dir s o = true ->
  existsb is_dotdot (DynMkdirAll.parts_of (Some rm)) = false ->
  DynMkdir.descend_dirs s' o (DynMkdirAll.parts_of (Some rm)) = Some c ->
  FSModel.kwalk s' path false nosym = FSModel.WOk c.
Proof. exact DynResolve.mkdir_all_handle_is_resolution. Qed.

Theorem C12_mkdir_all_post_kernel_backend :
  forall s rp fz pfuel gh ps rs t root path mode o rm exp,
  fz <> 0%nat -> DynMkdir.closed2 s -> FSModel.is_dir s FSModel.ROOT = true ->
  ph_mnt gh = Some Static.PROC_MNT -> ph_openat2 gh = true -> rs_kernel rs = true ->
  Static.tget t root = Some FSModel.ROOT -> Static.tget t (ph_fd gh) = Some (Static.PB s) -> has_nul path = false -> path <> [] ->
  N.ldiff mode MKDIR_ALL_MASK1 = 0 -> N.ldiff mode MKDIR_ALL_MASK2 = 0 ->
  let nosym := has (N.lor OPENAT2_RESOLVE_RESOLVE (rs_flags rs)) RESOLVE_NO_SYMLINKS in
  DynMkdirAll.kpartial s path nosym = DynMkdirAll.KPartial o rm ENOENT ->
  FSModel.is_dir s o = true -> Static.find_path s o = Some exp -> N.leb READLINK_BUF (N.of_nat (length (Static.render rp exp))) = false ->
  existsb is_dotdot (DynMkdirAll.parts_of (Some rm)) = false ->
  let s' := fst (DynMkdir.mk_spec s o (DynMkdirAll.parts_of (Some rm))) in
  DynMkdir.extends s s' /\
  exists t',
    match snd (DynMkdir.mk_spec s o (DynMkdirAll.parts_of (Some rm))) with
    | inl c => exists fd,
        Dyn.drun rp {| Dyn.ds := s; Dyn.dt := t; Dyn.dseen := [] |} (root_mkdir_all fz true (S pfuel) gh ps rs root path mode) =
          Dyn.DDone {| Dyn.ds := s'; Dyn.dt := t'; Dyn.dseen := [] |} (Ok fd) /\ Static.tget t' fd = Some c /\
        FSModel.is_dir s' c = true /\ FSModel.kwalk s' path false nosym = FSModel.WOk c
    | inr e =>
        Dyn.drun rp {| Dyn.ds := s; Dyn.dt := t; Dyn.dseen := [] |} (root_mkdir_all fz true (S pfuel) gh ps rs root path mode) =
          Dyn.DDone {| Dyn.ds := s'; Dyn.dt := t'; Dyn.dseen := [] |} (Err (OsError e))
    end.
Proof. exact DynResolve.mkdir_all_kernel_post. Qed.

(* ---- either backend, given what its partial lookup returned: everything after the lookup is backend-independent.
   For the emulated backend the lookup's result (handle on [o], unresolved rest) is what T3 executes against the
   library and C04 differences against the kernel backend; from there on this theorem applies. *)
From PV Require DynMkdirAny.
Theorem C12_mkdir_all_either_backend_given_lookup :
  forall s rp fz pfuel gh ps rs t root path mode t1 h o remaining exp,
  fz <> 0%nat -> DynMkdir.closed2 s -> ph_mnt gh = Some Static.PROC_MNT -> ph_openat2 gh = true ->
  N.ldiff mode MKDIR_ALL_MASK1 = 0 -> N.ldiff mode MKDIR_ALL_MASK2 = 0 ->
  Static.run s rp t (r_resolve_partial fz true (S pfuel) gh ps rs root path false) =
    Static.Done t1 (Ok (match remaining with None => Complete h | Some rm => Partial h rm (OsError ENOENT) end)) ->
  Static.tget t1 (ph_fd gh) = Some (Static.PB s) -> Static.tget t1 h = Some o -> (o < Static.PB s)%nat ->
  FSModel.is_dir s o = true -> Static.find_path s o = Some exp ->
  N.leb READLINK_BUF (N.of_nat (length (Static.render rp exp))) = false ->
  existsb is_dotdot (DynMkdirAll.parts_of remaining) = false -> (forall x, remaining = Some x -> has_nul x = false) ->
  exists t',
    match snd (DynMkdir.mk_spec s o (DynMkdirAll.parts_of remaining)) with
    | inl c => exists fd,
        Dyn.drun rp {| Dyn.ds := s; Dyn.dt := t; Dyn.dseen := [] |} (root_mkdir_all fz true (S pfuel) gh ps rs root path mode) =
          Dyn.DDone {| Dyn.ds := fst (DynMkdir.mk_spec s o (DynMkdirAll.parts_of remaining)); Dyn.dt := t'; Dyn.dseen := [] |} (Ok fd) /\
        Static.tget t' fd = Some c /\
        (forall x, StaticBal.indom t' x -> x = fd \/ (StaticBal.indom t1 x /\ x <> h))
    | inr e =>
        Dyn.drun rp {| Dyn.ds := s; Dyn.dt := t; Dyn.dseen := [] |} (root_mkdir_all fz true (S pfuel) gh ps rs root path mode) =
          Dyn.DDone {| Dyn.ds := fst (DynMkdir.mk_spec s o (DynMkdirAll.parts_of remaining)); Dyn.dt := t'; Dyn.dseen := [] |} (Err (OsError e)) /\
        (forall x, StaticBal.indom t' x -> StaticBal.indom t1 x /\ x <> h)
    end.
Proof. exact DynMkdirAny.mkdir_all_given_lookup. Qed.

(* ---- C12, completeness: mkdir_all has no reason to fail when every component that exists along the remaining
   chain is a directory and every name fits NAME_MAX -- and then it does not fail (kernel backend).  [dirs_ok]:
   every entry's directory is an object of the tree. *)
From PV Require DynMkdirComplete.

Theorem C12_spec_complete :
  forall ps s o, DynMkdir.closed2 s -> DynMkdirComplete.dirs_ok s -> (o < length (FSModel.kinds s))%nat -> FSModel.is_dir s o = true ->
  Forall (fun p => Dyn.plain p = true) ps -> DynMkdirComplete.chain_ok s o ps ->
  exists c, snd (DynMkdir.mk_spec s o ps) = inl c.
Proof. exact DynMkdirComplete.mk_spec_complete. Qed.

Theorem C12_mkdir_all_succeeds_kernel_backend :
  forall s rp fz pfuel gh ps rs t root path mode o rm exp,
  fz <> 0%nat -> DynMkdir.closed2 s -> DynMkdirComplete.dirs_ok s -> FSModel.is_dir s FSModel.ROOT = true ->
  ph_mnt gh = Some Static.PROC_MNT -> ph_openat2 gh = true -> rs_kernel rs = true ->
  Static.tget t root = Some FSModel.ROOT -> Static.tget t (ph_fd gh) = Some (Static.PB s) -> has_nul path = false -> path <> [] ->
  N.ldiff mode MKDIR_ALL_MASK1 = 0 -> N.ldiff mode MKDIR_ALL_MASK2 = 0 ->
  let nosym := has (N.lor OPENAT2_RESOLVE_RESOLVE (rs_flags rs)) RESOLVE_NO_SYMLINKS in
  DynMkdirAll.kpartial s path nosym = DynMkdirAll.KPartial o rm ENOENT ->
  FSModel.is_dir s o = true -> Static.find_path s o = Some exp ->
  N.leb READLINK_BUF (N.of_nat (length (Static.render rp exp))) = false ->
  existsb is_dotdot (DynMkdirAll.parts_of (Some rm)) = false ->
  DynMkdirComplete.chain_ok s o (DynMkdirAll.parts_of (Some rm)) ->
  let s' := fst (DynMkdir.mk_spec s o (DynMkdirAll.parts_of (Some rm))) in
  exists t' fd c,
    Dyn.drun rp {| Dyn.ds := s; Dyn.dt := t; Dyn.dseen := [] |} (root_mkdir_all fz true (S pfuel) gh ps rs root path mode) =
      Dyn.DDone {| Dyn.ds := s'; Dyn.dt := t'; Dyn.dseen := [] |} (Ok fd) /\ Static.tget t' fd = Some c /\
    FSModel.is_dir s' c = true /\ FSModel.kwalk s' path false nosym = FSModel.WOk c /\ DynMkdir.extends s s'.
Proof. exact DynMkdirComplete.mkdir_all_kernel_succeeds. Qed.

(* ---- C12, racing callers (the property's "all callers succeed with handles to the directories now at their
   paths"), on the model: [mk_conc] is the creation loop with the environment adding directories -- what every other
   mkdir_all caller does, and what the loop's own steps do ([C12_own_steps_are_environment_steps]) -- between any
   two of its calls.  Whatever the interleaving, a loop that had no reason to fail at the start does not fail, and
   its handle is the descent along the components in the final tree.  Without interference [mk_conc] is mk_spec. *)
From PV Require DynMkdirConc.

Theorem C12_interference_free_is_spec :
  forall ps s o, DynMkdirConc.mk_conc s o ps (fst (DynMkdir.mk_spec s o ps)) (snd (DynMkdir.mk_spec s o ps)).
Proof. exact DynMkdirConc.mk_conc_seq. Qed.

Theorem C12_own_steps_are_environment_steps :
  forall s o p s1, DynMkdir.mk_dir s o p = inl s1 -> DynMkdir.extends s s1.
Proof. exact DynMkdirConc.mk_dir_extends. Qed.

Theorem C12_loop_converges_under_racing_creators :
  forall s o ps s' r, DynMkdirConc.mk_conc s o ps s' r ->
  DynMkdir.closed2 s -> DynMkdirComplete.dirs_ok s -> FSModel.is_dir s o = true ->
  Forall (fun p => Dyn.plain p = true) ps -> DynMkdirComplete.chain_ok s o ps ->
  DynMkdir.extends s s' /\
  exists c, r = inl c /\ DynMkdir.descend_dirs s' o ps = Some c /\ FSModel.is_dir s' c = true.
Proof. exact DynMkdirConc.mk_conc_converges. Qed.

Theorem C12_racing_callers_hold_the_same_directory :
  forall sa sb o ps sa' sb' ra rb sF,
  DynMkdirConc.mk_conc sa o ps sa' ra -> DynMkdirConc.mk_conc sb o ps sb' rb -> DynMkdir.extends sa' sF -> DynMkdir.extends sb' sF ->
  DynMkdir.closed2 sa -> DynMkdirComplete.dirs_ok sa -> FSModel.is_dir sa o = true -> DynMkdirComplete.chain_ok sa o ps ->
  DynMkdir.closed2 sb -> DynMkdirComplete.dirs_ok sb -> FSModel.is_dir sb o = true -> DynMkdirComplete.chain_ok sb o ps ->
  Forall (fun p => Dyn.plain p = true) ps ->
  exists c, ra = inl c /\ rb = inl c /\ DynMkdir.descend_dirs sF o ps = Some c.
Proof. exact DynMkdirConc.mk_conc_same_handles. Qed.

(* non-vacuity: another caller creates x before our mkdirat (EEXIST, tolerated) and x/y between our open of x and
   our mkdirat of y; we end on the other caller's x/y *)
Example C12_racing_run :
  let s0 := {| FSModel.kinds := [FSModel.KDir]; FSModel.parents := [0%nat]; FSModel.ents := [] |} in
  let s1 := FSModel.add_obj s0 0 (b "x") FSModel.KDir in
  let s2 := FSModel.add_obj s1 1 (b "y") FSModel.KDir in
  DynMkdirConc.mk_conc s0 0 [b "x"; b "y"] s2 (inl 2%nat) /\
  DynMkdir.closed2 s0 /\ DynMkdirComplete.dirs_ok s0 /\ DynMkdirComplete.chain_ok s0 0 [b "x"; b "y"].
Proof.
  intros s0 s1 s2. split.
  - apply (DynMkdirConc.mc_env s0 s1); [apply (DynMkdir.ext_add s0 s0); [apply DynMkdir.ext_refl|reflexivity|reflexivity]|].
    apply (DynMkdirConc.mc_step s1 0%nat (b "x") [b "y"] s1 s2 1%nat); [vm_compute; reflexivity| |vm_compute; reflexivity|].
    + apply (DynMkdir.ext_add s1 s1); [apply DynMkdir.ext_refl|reflexivity|reflexivity].
    + apply (DynMkdirConc.mc_step s2 1%nat (b "y") [] s2 s2 2%nat); [vm_compute; reflexivity|apply DynMkdir.ext_refl|vm_compute; reflexivity|apply DynMkdirConc.mc_nil].
  - split; [|split].
    + split; [split; [vm_compute; lia|split]|reflexivity].
      * intros d n c H. destruct d; discriminate H.
      * intros o Ho. unfold Static.PB in *. cbn in Ho. destruct o; [vm_compute; lia|lia].
    + intros e [].
    + vm_compute. repeat split; constructor; try reflexivity; constructor.
Qed.

(* ---- the premises are invariants: every tree that any sequence of the modelled operations (mkdirat / mknodat /
   symlinkat, openat(O_CREAT), unlinkat, linkat, renameat2 with its three flag values, mkdir_all's loop, remove_all) can
   produce from an empty root -- any order, any arguments, failing or not -- satisfies what the functional theorems
   assume of a tree (closed2, ents_ok, uniq, dirs_ok, tree_ok) *)
From PV Require DynInv.
Theorem C12_every_reachable_tree_satisfies_the_premises :
  forall ops, let s := fold_left DynInv.apply_op ops DynInv.root_only in
  DynMkdir.closed2 s /\ DynRemove.ents_ok s /\ DynRemoveExact.uniq s /\ DynMkdirComplete.dirs_ok s /\ DynRemoveConc.tree_ok s.
Proof. exact DynInv.reachable_premises. Qed.

(* executed (non-vacuity): abs -> /a; mkdir_all("abs/x/y/z") on both backends creates a/x, a/x/y, a/x/y/z and
   returns the last one; the pure functions give the same tree and object; a file in the way ends the loop
   with ENOTDIR after a/x was created (what was created lies on the chain) *)
Example C12_dynamic_runs :
  let s := FSModel.build [FSModel.MkDir [b "a"]; FSModel.MkFile [b "a"; b "f"]; FSModel.MkLnk [b "abs"] (b "/a")] in
  let gh := {| ph_fd := 4; ph_mnt := Some Static.PROC_MNT; ph_subset := false; ph_openat2 := true |} in
  let st := {| Dyn.ds := s; Dyn.dt := [(5%Z, FSModel.ROOT); (4%Z, Static.PB s)]; Dyn.dseen := [] |} in
  let emu := {| rs_kernel := false; rs_flags := 0 |} in let kern := {| rs_kernel := true; rs_flags := 0 |} in
  let tree {A} (o : Dyn.doutcome A) := match o with Dyn.DDone st' _ => map (fun e => fst (fst e)) (Dyn.dump (Dyn.ds st')) | _ => [] end in
  let obj (o : Dyn.doutcome (result Z ekind)) := match o with Dyn.DDone st' (Ok fd) => Static.tget (Dyn.dt st') fd | _ => None end in
  let want := [[b "a"]; [b "a"; b "f"]; [b "a"; b "x"]; [b "a"; b "x"; b "y"]; [b "a"; b "x"; b "y"; b "z"]; [b "abs"]] in
  tree (Dyn.drun (b "/srv/root") st (root_mkdir_all 1 true 2 gh 1 kern 5 (b "abs/x/y/z") 493)) = want /\
  tree (Dyn.drun (b "/srv/root") st (root_mkdir_all 1 true 2 gh 1 emu 5 (b "abs/x/y/z") 493)) = want /\
  obj (Dyn.drun (b "/srv/root") st (root_mkdir_all 1 true 2 gh 1 kern 5 (b "abs/x/y/z") 493)) = Some 6%nat /\
  DynMkdirAll.kpartial s (b "abs/x/y/z") false = DynMkdirAll.KPartial 1 (b "x/y/z") ENOENT /\
  map (fun e => fst (fst e)) (Dyn.dump (fst (DynMkdir.mk_spec s 1 [b "x"; b "y"; b "z"]))) = want /\
  snd (DynMkdir.mk_spec s 1 [b "x"; b "y"; b "z"]) = inl 6%nat /\
  snd (DynMkdir.mk_spec s 1 [b "x"; b "f"; b "z"]) = inl 6%nat /\
  snd (DynMkdir.mk_spec s 1 [b "f"; b "z"]) = inr ENOTDIR.
Proof. vm_compute. repeat split. Qed.

Print Assumptions C12_mode_checked.
Print Assumptions C12_calls_disciplined.
Print Assumptions C12_balanced.
Print Assumptions C12_no_unknown_panic.
Print Assumptions C12_balanced_all_backends.
Print Assumptions C12_creation_is_one_chain.
Print Assumptions C12_loop.
Print Assumptions C12_chain_monitor_sound.
Print Assumptions C12_loop_computes_spec.
Print Assumptions C12_spec_post.
Print Assumptions C12_extends_changes_nothing_else.
Print Assumptions C12_partial_lookup_kernel_backend.
Print Assumptions C12_mkdir_all_kernel_backend.
Print Assumptions C12_handle_is_resolution_in_resulting_tree.
Print Assumptions C12_mkdir_all_post_kernel_backend.
Print Assumptions C12_mkdir_all_either_backend_given_lookup.
Print Assumptions C12_spec_complete.
Print Assumptions C12_mkdir_all_succeeds_kernel_backend.
Print Assumptions C12_interference_free_is_spec.
Print Assumptions C12_own_steps_are_environment_steps.
Print Assumptions C12_loop_converges_under_racing_creators.
Print Assumptions C12_racing_callers_hold_the_same_directory.
Print Assumptions C12_every_reachable_tree_satisfies_the_premises.
