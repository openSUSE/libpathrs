(* C09 -- reopen.  For all answers: creation flags refused, descriptor-number independence,
   the single follow site, balance, no effect on the tree.  On the static kernel: the whole
   of Handle::reopen returns a new descriptor on the same object and leaves the table
   otherwise as it was, with either procfs resolver.  (That the fd/N magic-link denotes
   the very open file description is the kernel's contract; it is exercised by the runtime
   oracle under rename/replace/unlink histories, not proved here.) *)
From PV Require Import Discipline ProgTac FaultProofs Hoare ProcfsProps FdBalProofs FdBalance EffectProofs.
From PV Require StaticProcfsEmu StaticReopen.

Theorem C09_creat_refused :
  forall fz cfg fuel gh fd fl, creation_flags fl -> okp TC TS is_Err (reopen fz cfg fuel gh fd fl).
Proof.
  intros fz cfg fuel gh fd fl Hc. unfold reopen. apply rets_bind. intros [meta|e]; [|auto with errs].
  destruct (is_symlink_mode _); [auto with errs|].
  destruct (proc_subpath fd); [|auto with errs].
  rewrite (popen_follow_refuses _ _ _ _ _ _ _ (creation_without_nofollow fl Hc)). auto with errs.
Qed.

(* the magic-link is addressed by number for every descriptor >= 0: no case
   distinction on the value (0 included) *)
Theorem C09_fd_independent :
  forall fd, (0 <= fd)%Z -> proc_subpath fd = Some (b "fd/" ++ dec (Z.to_N fd)).
Proof. exact proc_subpath_nonneg. Qed.

(* reopen goes through open_follow: the only possibly-following open is the
   verified magic-link one; and the descriptor table is balanced (C11) *)
Theorem C09_single_follow_site :
  forall fz cfg fuel gh fd fl hist0,
    real_fd (ph_fd gh) = true -> real_fd fd = true ->
    match proc_subpath fd with
    | Some sub => spec follow_ok TrueQ hist0 (popen_follow fz cfg fuel gh ProcThreadSelf sub (without fl REOPEN_REMOVED))
    | None => False
    end.
Proof.
  intros fz cfg fuel gh fd fl hist0 Hg Hfd. rewrite proc_subpath_nonneg; [|apply Z.leb_le; exact Hfd].
  apply popen_follow_dominated. exact Hg.
Qed.

Theorem C09_balanced :
  forall fz cfg fuel gh fd fl, bal (Rfd []) [] (reopen fz cfg fuel gh fd fl).
Proof. intros. apply reopen_bal. Qed.

(* build-time guard: these two have exactly the statements written here *)
Check C09_creat_refused :
  forall fz cfg fuel gh fd fl, creation_flags fl -> okp TC TS is_Err (reopen fz cfg fuel gh fd fl).
Check C09_fd_independent :
  forall fd, (0 <= fd)%Z -> proc_subpath fd = Some (b "fd/" ++ dec (Z.to_N fd)).

Example C09_fd_zero : proc_subpath 0 = Some (b "fd/0") /\ proc_subpath 1023 = Some (b "fd/1023").
Proof. split; reflexivity. Qed.

(* The whole of Handle::reopen as a PROGRAM, on the static kernel model (tree + procfs,
   theories/Static.v, tied to recorded real answers by T2'): for a descriptor open on any
   object of the tree that is not a symlink, and any flags the library accepts that fit the
   object, reopen returns a NEW descriptor open on the SAME object, and the descriptor table
   afterwards is the old one plus exactly that descriptor -- every procfs descriptor used on
   the way (thread-self directory, fd directory, the magic-link) is closed again.
   (With openat2, and without it -- every procfs step then goes through the emulated procfs
   resolver.  Premises after the handle's are properties of the tree alone.) *)
Theorem C09_reopen_same_object :
  (* [o2]: is openat2 available?  The procfs handle resolves with it exactly when it is. *)
  forall s rp fz gh o2 pf t fd o exp flags,
    fz <> 0%nat -> ph_mnt gh = Some Static.PROC_MNT -> ph_openat2 gh = o2 ->
    Static.tget t (ph_fd gh) = Some (Static.PB s) ->
    Static.tget t fd = Some o -> (o < Static.PB s)%nat -> FSModel.link_body s o = None ->
    Static.find_path s o = Some exp -> N.leb READLINK_BUF (N.of_nat (length (Static.render rp exp))) = false ->
    (intersects (without flags REOPEN_REMOVED) OPEN_FOLLOW_REFUSED || has_nz (without flags REOPEN_REMOVED) OPEN_FOLLOW_REFUSED_CONTAINS) = false ->
    (has (N.lor (N.lor (without flags REOPEN_REMOVED) OPENAT_FORCED) O_LARGEFILE) O_DIRECTORY && negb (Static.obj_is_dir s o)) = false ->
    exists nfd, Static.run s rp t (reopen fz o2 (S pf) gh fd flags) = Static.Done ((nfd, o) :: t) (Ok nfd).
Proof.
  intros s rp fz gh o2 pf t fd o exp flags Hfz Hmnt Ho2 HP Hfd Holt Hnl Hpath Hlen Hacc Hdir.
  destruct (StaticReopen.run_reopen_any s rp fz Hfz gh Hmnt o2 Ho2 (StaticProcfsEmu.routes_any s rp fz o2 Hfz)
              pf t fd o exp flags HP Hfd Holt Hnl Hpath Hlen Hacc Hdir) as (nfd & H & _).
  exists nfd. exact H.
Qed.

(* executed: a handle on a/b/f at descriptor 7 is reopened O_RDONLY and O_WRONLY|O_APPEND;
   a handle on the directory a/b with O_DIRECTORY; O_CREAT is refused *)
Example C09_reopen_runs :
  let s := FSModel.build [FSModel.MkDir [b "a"]; FSModel.MkDir [b "a"; b "b"]; FSModel.MkFile [b "a"; b "b"; b "f"]] in
  let gh := {| ph_fd := 4; ph_mnt := Some Static.PROC_MNT; ph_subset := false; ph_openat2 := true |} in
  let t := [(7%Z, 3%nat); (6%Z, 2%nat); (4%Z, Static.PB s)] in
  let outcome fd flags := match Static.run s (b "/srv/root") t (reopen 1 true 2 gh fd flags) with
                          | Static.Done t' (Ok nfd) => (Static.tget t' nfd, length t')
                          | Static.Done t' (Err _) => (None, length t')
                          | _ => (None, 0%nat) end in
  outcome 7%Z O_RDONLY = (Some 3%nat, 4%nat) /\ outcome 7%Z (N.lor O_WRONLY O_APPEND) = (Some 3%nat, 4%nat) /\
  outcome 6%Z (N.lor O_RDONLY O_DIRECTORY) = (Some 2%nat, 4%nat) /\ outcome 7%Z (N.lor O_RDONLY O_DIRECTORY) = (None, 3%nat) /\
  outcome 7%Z (N.lor O_WRONLY O_CREAT) = (None, 3%nat) /\
  (* the same without openat2 *)
  (match Static.run s (b "/srv/root") t (reopen 1 false 2 {| ph_fd := 4; ph_mnt := Some Static.PROC_MNT; ph_subset := false; ph_openat2 := false |} 7 O_RDONLY) with
   | Static.Done t' (Ok nfd) => (Static.tget t' nfd, length t') | _ => (None, 0%nat) end) = (Some 3%nat, 4%nat).
Proof. vm_compute. repeat split. Qed.

(* reopen never creates or changes anything, whatever flags it is given (for all answers) *)
Theorem C09_reopen_changes_nothing :
  forall fz cfg fuel gh fd flags, calls_le eff 0 (reopen fz cfg fuel gh fd flags).
Proof. intros. apply reopen_ne. Qed.

Print Assumptions C09_creat_refused.
Print Assumptions C09_fd_independent.
Print Assumptions C09_single_follow_site.
Print Assumptions C09_balanced.
Print Assumptions C09_reopen_same_object.
Print Assumptions C09_reopen_changes_nothing.
