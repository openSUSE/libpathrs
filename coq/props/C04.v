(* C04 -- the kernel and emulated resolver backends are observationally equivalent.
   Lookups: the emulated walk equals the kernel walk on every well-formed static
   file system within 40 link traversals (C01).  Parent-based operations: both
   backends run the same program around the lookup -- the operation is the
   backend's lookup of the parent followed by a continuation in which the
   backend does not occur.  Partial lookups (mkdir_all) and the resulting trees
   are compared by the direct differential of tools/props/C04.py (DESIGN.md: partial). *)
From PV Require Import Discipline ProgTac RootDisc FSModel FSProofs.
From PV Require StaticProcfsEmu StaticBackends.

Theorem C04_resolve_equiv :
  forall s df, wf s df -> forall p nf nosym,
    (EMPTY_PATH_IS_ENOENT = true \/ p <> []) -> kwalk s p nf nosym <> WBudget ->
    ewalk s p nf nosym = kwalk s p nf nosym.
Proof. exact emu_eq_kernel. Qed.

(* the operation = (backend lookup of the parent) ; (backend-independent continuation) *)
Theorem C04_parent_ops_factor :
  forall fz cfg pfuel gh ps rs root path,
    match path_split path with
    | Some (Ok (dirp, Some name)) =>
        peq (parent_and_name fz cfg pfuel gh ps rs root path)
            (dir <-? r_resolve fz cfg pfuel gh ps rs root dirp false ;; Ret (Ok (dir, name)))
        /\ name <> [] /\ has_slash name = false
    | Some (Ok (dirp, None)) =>
        peq (parent_and_name fz cfg pfuel gh ps rs root path)
            (dir <-? r_resolve fz cfg pfuel gh ps rs root dirp false ;; close dir ;;; Ret (Err InvalidArgument))
        /\ (path = [] \/ exists q, path = q ++ [SLASH])
    | _ => False
    end.
Proof. exact parent_and_name_shape. Qed.

(* flags refused by the one-shot open are refused identically by both backends, before any call *)
Theorem C04_open_refusals :
  forall fz cfg pfuel gh ps rs root path flags,
    (intersects flags RESOLVER_OPEN_REFUSED || has_nz flags RESOLVER_OPEN_REFUSED_CONTAINS) = true ->
    r_open fz cfg pfuel gh ps rs root path flags = Ret (Err InvalidArgument).
Proof. intros. unfold r_open. rewrite H. reflexivity. Qed.

(* NUL bytes: both backends answer EINVAL without a lookup call (OPENAT2_NUL_EINVAL; F-F) *)
Theorem C04_nul_refused_by_wrappers :
  forall fz fd path fl m rs, valid_fd fd = true -> has_nul path = true ->
    peq (w_openat2 fz fd path fl m rs) (fail1 fz fd EINVAL) /\
    peq (w_openat fz fd path fl m) (fail1 fz fd EINVAL).
Proof.
  intros fz fd path fl m rs Hv Hn. split.
  - unfold w_openat2. rewrite Hv. cbn [negb].
    assert (E : OPENAT2_NUL_EINVAL = true) by reflexivity. rewrite E, Hn. apply peq_refl.
  - unfold w_openat, w_openat_follow, rustix_path. rewrite Hv, Hn. apply peq_refl.
Qed.

(* The two backends as PROGRAMS, on the static kernel model (whose openat2(RESOLVE_IN_ROOT)
   answers with the reference walk [kwalk] -- tie T2 -- and whose single-component calls and
   procfs are tied by T2'): for the same tree, root descriptor, path, trailing mode and
   resolver flags, Resolver::resolve on the kernel backend and on the emulated backend
   (with or without openat2 for its procfs checks) return descriptors open on the SAME
   object, or fail with the SAME errno -- whenever the kernel's walk stays within its 40-link
   budget.  Premises after [wf] are properties of the tree alone (no hard links). *)
Theorem C04_backends_agree :
  forall s rp df fz pf gh o2 ps t root path nofollow rflags,
    wf s df -> StaticProofs.links_ok s -> StaticProofs.names_ok s -> StaticProofs.closed s ->
    StaticProcfs.paths_found s -> StaticProcfs.paths_short s rp -> is_abs rp = true ->
    fz <> 0%nat -> ph_mnt gh = Some Static.PROC_MNT -> ph_openat2 gh = o2 ->
    StaticProofs.Frame s [(ph_fd gh, Static.PB s)] t -> Static.tget t root = Some ROOT -> has_nul path = false ->
    (EMPTY_PATH_IS_ENOENT = true \/ path <> []) ->
    let nosym := has rflags RESOLVE_NO_SYMLINKS in
    let kern := {| rs_kernel := true; rs_flags := rflags |} in
    let emu := {| rs_kernel := false; rs_flags := rflags |} in
    match kwalk s path nofollow nosym with
    | WOk o =>
        (exists t1 fd1, Static.run s rp t (r_resolve fz true (S pf) gh ps kern root path nofollow) = Static.Done t1 (Ok fd1) /\ Static.tget t1 fd1 = Some o) /\
        (exists t2 fd2, Static.run s rp t (r_resolve fz o2 (S pf) gh ps emu root path nofollow) = Static.Done t2 (Ok fd2) /\ Static.tget t2 fd2 = Some o)
    | WErr n =>
        (exists t1, Static.run s rp t (r_resolve fz true (S pf) gh ps kern root path nofollow) = Static.Done t1 (Err (OsError n))) /\
        (exists t2, Static.run s rp t (r_resolve fz o2 (S pf) gh ps emu root path nofollow) = Static.Done t2 (Err (OsError n)))
    | WBudget => True
    end.
Proof.
  intros s rp df fz pf gh o2 ps t root path nofollow rflags Hwf Hl Hn Hcl Hpf Hps Habs Hfz Hmnt Ho2 Hfr Hroot Hnul Hp nosym kern emu.
  (* the forced resolve flags do not contain RESOLVE_NO_SYMLINKS: that bit is the caller's *)
  assert (Hns : has (N.lor OPENAT2_RESOLVE_RESOLVE rflags) RESOLVE_NO_SYMLINKS = nosym).
  { unfold nosym. change RESOLVE_NO_SYMLINKS with (2 ^ 2). rewrite !BitsProofs.has_bit, N.lor_spec. reflexivity. }
  pose proof (StaticBackends.run_k_resolve s rp fz Hfz Hcl t root path rflags nofollow Hroot Hnul) as Hk. rewrite Hns in Hk.
  pose proof (StaticProofs.resolve_static s rp _ Hcl fz Hfz _
                (StaticProofs.check_current_static s rp _ (CheckProofs.nf rp) _ Hn
                   (StaticProcfs.getpath_static_any s rp fz gh o2 pf Hfz Hmnt Ho2 (StaticProcfsEmu.routes_any s rp fz o2 Hfz) Habs Hn Hpf Hps))
                df Hwf Hl ps nosym nofollow t root path Hfr Hroot Hnul) as He.
  (* the two programs are k_resolve and resolve_gen by computation; the two walks agree within the budget *)
  destruct (kwalk s path nofollow nosym) as [o|n|] eqn:Ek; [| |exact I];
    rewrite (emu_eq_kernel s df Hwf path nofollow nosym Hp), Ek in He by (rewrite Ek; discriminate).
  - split; [|exact He]. eexists; eexists; split; [exact Hk|apply StaticProofs.tget_new].
  - split; [|exact He]. eexists; exact Hk.
Qed.

Print Assumptions C04_resolve_equiv.
Print Assumptions C04_parent_ops_factor.
Print Assumptions C04_open_refusals.
Print Assumptions C04_nul_refused_by_wrappers.
Print Assumptions C04_backends_agree.
