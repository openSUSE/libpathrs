(* C13 -- remove_all removes exactly the named subtree and never follows links.
   First part, for all kernel answers: "." / ".." and names with '/' are refused before anything
   is touched; every open forbids following; descriptors are balanced; every unlinkat is on the
   named entry or on a descriptor reached by descending from it (with its monitor over recorded
   traces).
   Second part, on the dynamic kernel model (theories/Dyn.v): remove_all computes a pure function
   of the tree that removes the named entry and exactly what lies beneath it (names unique per
   directory), on both backends; it does not run out of fuel on trees built without moving a
   directory; a later caller succeeds without change; racing removers converge; the tree
   premises are invariants of every reachable tree.
   Left to the runs of tools/props/C13.py (DESIGN.md): what a descriptor denotes after an
   attacker moved it, and environments that also add or rename. *)
From PV Require C03.
From PV Require Import Discipline ProgTac OpathDisc RootDisc FdBalance FdBalProofs RootBal BeneathProofs MonitorProofs.

Theorem C13_dot_refused :
  forall fz fuel dirfd name,
    dot_or_dotdot name = true -> has_slash name = false ->
    remove_all fz (S fuel) dirfd name = Ret (Err InvalidArgument).
Proof. exact C03.C03_dots_refused. Qed.

Theorem C13_slash_refused :
  forall fz fuel dirfd name, has_slash name = true -> remove_all fz (S fuel) dirfd name = Ret (Err SafetyViolation).
Proof. intros fz fuel dirfd name. intro Hs. cbn [remove_all]. rewrite Hs. reflexivity. Qed.

(* never follows links: every open carries O_NOFOLLOW (or names "."), every
   unlink/rmdir names a single component relative to a descriptor *)
Theorem C13_links_not_followed :
  forall fz fuel dirfd name, rfd dirfd -> all_calls Pdn (remove_all fz fuel dirfd name).
Proof. intros. eapply okp_all_calls. apply remove_all_ok. assumption. Qed.

Theorem C13_root_op_disciplined :
  forall fz cfg pfuel gh ps rfuel rs root path,
    rfd (ph_fd gh) -> rfd root -> all_calls Pdn (root_remove_all fz cfg pfuel gh ps rfuel rs root path).
Proof. intros. eapply okp_all_calls. apply root_remove_all_ok; assumption. Qed.

Theorem C13_balanced :
  forall fz fuel dirfd name o, bal (Rsame o) o (remove_all fz fuel dirfd name).
Proof. intros. apply remove_all_bal. Qed.

(* stays beneath the named entry, for all answers -- whatever the directory listings say
   and whoever rearranges the tree meanwhile: every unlinkat is on (dirfd, name) itself or
   on a descriptor obtained by descending from it (opening the entry, or a '/'-free name
   other than "." / ".." below such a descriptor, always with O_NOFOLLOW; or re-opening "."
   of one), and names a '/'-free entry other than "." and ".."; no other call that changes
   the tree is issued ([call_ok], [sub] in proofs/BeneathProofs.v: the set D of descending
   descriptors starts empty and grows by exactly the results of those opens) *)
Theorem C13_stays_beneath :
  forall fz fuel dirfd name, sub dirfd name (grows []) [] (remove_all fz fuel dirfd name).
Proof. intros. apply (remove_all_subg dirfd name fz fuel dirfd name []); [left; split; reflexivity|apply incl_refl]. Qed.

(* the same judgement as an executable monitor over recorded traces: every trace of the running
   library that the model program accepts (T1) is accepted by [trace_sub]; tools/props/C13.py
   evaluates [trace_beneath] (the monitor started at the first unlinkat) on the recorded calls *)
Theorem C13_beneath_monitor_sound :
  forall fz fuel dirfd name t idx a n,
    run_trace (remove_all fz fuel dirfd name) t idx = RDone a n -> trace_sub dirfd name t [] = true.
Proof. intros. eapply sub_sound; [apply C13_stays_beneath|eassumption]. Qed.

(* what the judgement accepts and rejects *)
Example C13_beneath_examples :
  call_ok 5 (b "v") [] (Unlinkat 5 (b "v") 0) /\ ~ call_ok 5 (b "v") [] (Unlinkat 5 (b "w") 0) /\
  ~ call_ok 5 (b "v") [7%Z] (Unlinkat 7 (b "..") 0) /\ ~ call_ok 5 (b "v") [7%Z] (Unlinkat 8 (b "x") 0) /\
  call_ok 5 (b "v") [7%Z] (Unlinkat 7 (b "x") 512) /\
  ~ call_ok 5 (b "v") [7%Z] (Openat 7 (b "x") O_DIRECTORY 0) /\
  ~ call_ok 5 (b "v") [7%Z] (Renameat 7 (b "x") 7 (b "y")).
Proof.
  unfold call_ok, plain. repeat split; try (left; split; reflexivity); try (right; split; [left; reflexivity|split; reflexivity]).
  - intros [[_ H]|[[] _]]. discriminate.
  - intros [[H _]|[_ [_ H]]]; discriminate.
  - intros [[H _]|[[H|[]] _]]; discriminate.
  - intros [[H _]|[_ [[_ H]|H]]]; discriminate.
  - intros [].
Qed.

Example C13_dots : dot_or_dotdot (b ".") = true /\ dot_or_dotdot (b "..") = true /\ dot_or_dotdot (b "...") = false.
Proof. repeat split. Qed.

(* ---- the functional statement, on the DYNAMIC kernel model (theories/Dyn.v) ---------------------
   [rm_all] is a pure function of the tree (and of the fuel that bounds recursion depth, scan rounds
   and directory size): unlink / rmdir of the entry, else -- a non-empty directory -- scan rounds
   over its listing with the recursion into each entry, then the directory itself.
   1. dir.rs remove_all, executed on the dynamic kernel, computes it, and leaves the descriptor
      table and the set of directory streams exactly as they were; 2. RootRef::remove_all = parent
      lookup (either backend) ; rm_all; 3. for ANY tree: rm_all adds and modifies nothing
      ([shrinks]), every entry that disappears lies BENEATH the named entry -- reached through real
      directories, never through a link --, and a reported success means the named entry is gone. *)
From PV Require DynRemove DynEffects.

Theorem C13_remove_all_computes_spec :
  forall rp fz, fz <> 0%nat -> forall fuel s t seen dirfd d name,
  DynRemove.ents_ok s -> DynRemove.seen_ok t seen -> Static.tget t dirfd = Some d -> (d < Dyn.NPB s)%nat ->
  has_nul name = false -> is_nil name = false ->
  Dyn.drun rp {| Dyn.ds := s; Dyn.dt := t; Dyn.dseen := seen |} (remove_all fz fuel dirfd name) =
  match DynRemove.rm_all fuel s d name with
  | None => Dyn.DNoFuel
  | Some (s', r) => Dyn.DDone {| Dyn.ds := s'; Dyn.dt := t; Dyn.dseen := seen |} r
  end.
Proof. exact DynRemove.remove_all_dyn. Qed.

Theorem C13_root_remove_all_exact :
  forall s rp fz pfuel o2 gh ps rs, fz <> 0%nat -> forall rfuel t root path t1 dir name o,
  DynEffects.parent_ok s rp fz pfuel o2 gh ps rs t root path t1 dir name o -> DynRemove.ents_ok s ->
  has_nul name = false -> is_nil name = false ->
  Dyn.drun rp {| Dyn.ds := s; Dyn.dt := t; Dyn.dseen := [] |} (root_remove_all fz o2 pfuel gh ps rfuel rs root path) =
  match DynRemove.rm_all rfuel s o name with
  | None => Dyn.DNoFuel
  | Some (s', r) => Dyn.DDone {| Dyn.ds := s'; Dyn.dt := Static.tdel t1 dir; Dyn.dseen := [] |} r
  end.
Proof.
  intros s rp fz pfuel o2 gh ps rs Hfz rfuel t root path t1 dir name o Hp Hok Hnul Hnil.
  unfold root_remove_all. rewrite (DynEffects.drun_parent s rp fz pfuel o2 gh ps rs _ _ _ _ _ _ _ _ Hp). cbn beta iota.
  destruct Hp as (_ & Hd & Hlt & _).
  rewrite DynProofs.drun_bind, (DynRemove.remove_all_dyn rp fz Hfz rfuel s t1 [] dir o name Hok ltac:(intros x Hx; discriminate) Hd Hlt Hnul Hnil).
  destruct (DynRemove.rm_all rfuel s o name) as [[s' r]|]; [|reflexivity].
  rewrite DynProofs.drun_bind, DynProofs.drun_close_any. reflexivity.
Qed.

(* nothing is added, no object or parent pointer modified: the entries afterwards are among those before *)
Theorem C13_spec_only_removes :
  forall fuel s d name s' r, DynRemove.rm_all fuel s d name = Some (s', r) ->
  FSModel.kinds s' = FSModel.kinds s /\ FSModel.parents s' = FSModel.parents s /\ incl (FSModel.ents s') (FSModel.ents s).
Proof. exact DynRemove.rm_all_shrinks. Qed.

(* whatever disappears is the named entry or lies beneath the directory under that name (success or failure) *)
Theorem C13_spec_removes_only_beneath :
  forall fuel s d name s' r, DynRemove.rm_all fuel s d name = Some (s', r) ->
  forall e, In e (FSModel.ents s) -> ~ In e (FSModel.ents s') -> DynRemove.under s d name e.
Proof. intros fuel s d name s' r H. exact (DynRemove.rm_all_only fuel s s d name s' r (DynRemove.shrinks_refl s) H). Qed.

Theorem C13_spec_success_means_gone :
  forall fuel s d name s', Dyn.plain name = true ->
  DynRemove.rm_all fuel s d name = Some (s', Ok tt) -> FSModel.lookup s' d name = None.
Proof. exact DynRemove.rm_all_gone. Qed.

(* ---- C13, the exact statement ---------------------------------------------------------------------
   Premise [uniq] (DynRemoveExact.v).  Whenever the entry of a directory disappears, that
   directory is empty from then on ([step_ok], true of every unlink/rmdir and therefore of rm_all); so after a
   success every directory below the named one is empty, everything beneath it is gone, and -- with
   C13_spec_removes_only_beneath -- the entries afterwards are EXACTLY the entries before minus the named
   entry and what is beneath it. *)
From PV Require DynRemoveExact.

Theorem C13_spec_removes_everything_beneath :
  forall fuel s d name s' n' c,
  DynRemoveExact.uniq s -> Dyn.plain name = true -> DynRemove.rm_all fuel s d name = Some (s', Ok tt) ->
  In (d, n', c) (FSModel.ents s) -> beq name n' = true -> FSModel.is_dir s c = true ->
  forall e, DynRemove.beneath s c e -> ~ In e (FSModel.ents s').
Proof. exact DynRemoveExact.rm_all_removes_everything_beneath. Qed.

Theorem C13_spec_exact :
  forall fuel s d name s',
  DynRemoveExact.uniq s -> Dyn.plain name = true -> DynRemove.rm_all fuel s d name = Some (s', Ok tt) ->
  forall e, In e (FSModel.ents s') <-> (In e (FSModel.ents s) /\ ~ DynRemove.under s d name e).
Proof. exact DynRemoveExact.rm_all_exact. Qed.

(* ---- C13: remove_all does not run out of fuel, and the whole statement for the kernel backend ------------
   [deep s k c]: the sub-directories below [c] nest at most k deep.  With fuel k + (number of entries) + 6 the
   pure function returns a result ([Some]): every pass over a directory has enough fuel, a pass that went
   through leaves the directory empty, so the second round sees nothing -- two rounds always suffice. *)
From PV Require DynRemoveTotal.

Theorem C13_spec_terminates :
  forall k f s d name, DynRemove.ents_ok s -> (k + length (FSModel.ents s) + 6 <= f)%nat ->
  (forall c, FSModel.lookup s d name = Some c -> FSModel.is_dir s c = true -> DynRemoveTotal.deep s k c) ->
  DynRemove.rm_all f s d name <> None.
Proof. exact DynRemoveTotal.rm_all_total. Qed.

Theorem C13_remove_all_post_kernel_backend :
  forall s rp fz pfuel gh ps rs t root path dirp name o k rfuel,
  StaticProofs.closed s -> fz <> 0%nat -> rs_kernel rs = true -> DynRemoveExact.uniq s -> DynRemove.ents_ok s ->
  path_split path = Some (Ok (dirp, Some name)) -> has_nul dirp = false -> Dyn.plain name = true ->
  Static.tget t root = Some FSModel.ROOT ->
  FSModel.kwalk s dirp false (has (N.lor OPENAT2_RESOLVE_RESOLVE (rs_flags rs)) RESOLVE_NO_SYMLINKS) = FSModel.WOk o ->
  (forall c, FSModel.lookup s o name = Some c -> FSModel.is_dir s c = true -> DynRemoveTotal.deep s k c) ->
  (k + length (FSModel.ents s) + 6 <= rfuel)%nat ->
  exists s' r,
    Dyn.drun rp {| Dyn.ds := s; Dyn.dt := t; Dyn.dseen := [] |} (root_remove_all fz true pfuel gh ps rfuel rs root path) =
      Dyn.DDone {| Dyn.ds := s'; Dyn.dt := t; Dyn.dseen := [] |} r /\
    DynRemove.shrinks s s' /\
    (r = Ok tt -> forall e, In e (FSModel.ents s') <-> (In e (FSModel.ents s) /\ ~ DynRemove.under s o name e)).
Proof.
  intros s rp fz pfuel gh ps rs t root path dirp name o k rfuel Hcl Hfz Hk Hu Hok Hsplit Hnul Hpl Hroot Hw Hdeep Hfuel.
  destruct (DynProofs.plain_facts _ Hpl) as (Hnil & _ & _ & _ & Hnn).
  pose proof (DynEffects.parent_ok_kern s rp fz pfuel gh ps Hcl Hfz rs Hk t root path dirp name o Hsplit Hnul Hroot Hw) as Hp.
  pose proof (C13_root_remove_all_exact s rp fz pfuel true gh ps rs Hfz rfuel t root path _ _ name o Hp Hok Hnn Hnil) as Hrun.
  destruct (DynRemoveTotal.rm_all_post k rfuel s o name Hu Hok Hpl Hdeep Hfuel) as (s' & r & Erm & Hpost).
  exists s', r. split; [|exact Hpost]. rewrite Hrun, Erm, StaticProcfs.tdel_new. reflexivity.
Qed.

Theorem C13_remove_all_post_emulated_backend :
  forall s rp F df fz pfuel o2 gh ps rs t root path dirp name o k rfuel,
  StaticProofs.closed s -> fz <> 0%nat -> StaticProofs.chk_static_ok s rp F (OpathM.check_current fz o2 pfuel gh) ->
  FSProofs.wf s df -> StaticProofs.links_ok s ->
  rs_kernel rs = false -> DynRemoveExact.uniq s -> DynRemove.ents_ok s ->
  path_split path = Some (Ok (dirp, Some name)) -> has_nul dirp = false -> Dyn.plain name = true ->
  StaticProofs.Frame s F t -> Static.tget t root = Some FSModel.ROOT ->
  FSModel.ewalk s dirp false (has (rs_flags rs) RESOLVE_NO_SYMLINKS) = FSModel.WOk o ->
  (forall c, FSModel.lookup s o name = Some c -> FSModel.is_dir s c = true -> DynRemoveTotal.deep s k c) ->
  (k + length (FSModel.ents s) + 6 <= rfuel)%nat ->
  exists s' t' r,
    Dyn.drun rp {| Dyn.ds := s; Dyn.dt := t; Dyn.dseen := [] |} (root_remove_all fz o2 pfuel gh ps rfuel rs root path) =
      Dyn.DDone {| Dyn.ds := s'; Dyn.dt := t'; Dyn.dseen := [] |} r /\
    (forall x, StaticBal.indom t' x -> StaticBal.indom t x) /\
    DynRemove.shrinks s s' /\
    (r = Ok tt -> forall e, In e (FSModel.ents s') <-> (In e (FSModel.ents s) /\ ~ DynRemove.under s o name e)).
Proof.
  intros s rp F df fz pfuel o2 gh ps rs t root path dirp name o k rfuel Hcl Hfz Hchk Hwf Hl Hk Hu Hok Hsplit Hnul Hpl Hfr Hroot Hw Hdeep Hfuel.
  destruct (DynProofs.plain_facts _ Hpl) as (Hnil & _ & _ & _ & Hnn).
  destruct (DynEffects.parent_ok_emu s rp F df fz pfuel o2 gh ps Hcl Hfz Hchk Hwf Hl rs Hk t root path dirp name o Hsplit Hnul Hfr Hroot Hw)
    as (t1 & dir & Hp & _ & _).
  pose proof (C13_root_remove_all_exact s rp fz pfuel o2 gh ps rs Hfz rfuel t root path _ _ name o Hp Hok Hnn Hnil) as Hrun.
  destruct (DynRemoveTotal.rm_all_post k rfuel s o name Hu Hok Hpl Hdeep Hfuel) as (s' & r & Erm & Hpost).
  exists s', (Static.tdel t1 dir), r. split; [rewrite Hrun, Erm; reflexivity|]. split; [|exact Hpost].
  (* no descriptor left behind *)
  intros x Hx. apply StaticBal.indom_del in Hx. destruct Hx as [Hne Hin]. destruct Hp as (_ & _ & _ & _ & Honly).
  destruct (Honly x Hin) as [H|H]; [exact H|contradiction].
Qed.

(* a caller that comes after another one succeeded (or finds the name absent for any other reason) reports success
   and changes nothing: the sequential half of "concurrent remove_all calls all report success" *)
Theorem C13_absent_entry_is_success_without_change :
  forall f s d name, Dyn.plain name = true -> Dyn.too_long name = false -> FSModel.is_dir s d = true ->
  FSModel.lookup s d name = None -> DynRemove.rm_all (S f) s d name = Some (s, Ok tt).
Proof. exact DynRemoveTotal.rm_all_absent. Qed.

Theorem C13_later_caller_succeeds_without_change :
  forall f g s d name s', Dyn.plain name = true -> Dyn.too_long name = false -> FSModel.is_dir s d = true ->
  DynRemove.rm_all f s d name = Some (s', Ok tt) -> DynRemove.rm_all (S g) s' d name = Some (s', Ok tt).
Proof. exact DynRemoveTotal.rm_all_again. Qed.

(* ---- C13, the race clause on the model: [rc] is dir.rs remove_all with the environment removing entries -- what
   every other remove_all caller does -- between any two of its system calls ([rc_env] applies at every point,
   also between the unlinkat and the unlinkat(AT_REMOVEDIR) of remove_inode: the [shrinks] premises).  Without
   interference it is rm_all, the function remove_all was refined to ([C13_interference_free_is_spec]).  For EVERY
   interleaving, on a tree with unique short plain names, remove_all reports success, the name is gone, and nothing
   was added or modified: every error a racing remover can cause (ENOENT from unlinkat, rmdir, the open; a listing
   whose entries have vanished; a directory emptied or removed under our feet) is tolerated, and ENOTEMPTY after a
   pass that saw nothing cannot happen because nobody adds. *)
From PV Require DynRemoveConc.

Theorem C13_interference_free_is_spec :
  forall f s d n s' r, DynRemove.rm_all f s d n = Some (s', r) ->
  DynRemoveConc.rc (DynRemoveConc.TAll d n) s s' (DynRemoveConc.lift r).
Proof. exact DynRemoveConc.rm_all_rc. Qed.

Theorem C13_converges_under_racing_removers :
  forall s d n s' r, DynRemoveConc.rc (DynRemoveConc.TAll d n) s s' r ->
  DynRemoveConc.tree_ok s -> DynRemoveConc.nm_ok n -> FSModel.is_dir s d = true ->
  (exists b, r = Ok b) /\ FSModel.lookup s' d n = None /\ DynRemove.shrinks s s'.
Proof. exact DynRemoveConc.remove_all_converges_under_racing_removers. Qed.

(* executed: another remover takes a/f away between our rmdir (ENOTEMPTY) and our open of a/ *)
Example C13_racing_run :
  DynRemoveConc.rc (DynRemoveConc.TAll 0 (b "a")) DynRemoveConc.ex_s0 DynRemoveConc.ex_s2 (Ok true) /\
  DynRemoveConc.tree_ok DynRemoveConc.ex_s0 /\ DynRemoveConc.nm_ok (b "a") /\ FSModel.is_dir DynRemoveConc.ex_s0 0 = true.
Proof. exact DynRemoveConc.racing_run. Qed.

(* ---- the premises are invariants of every reachable tree (the statement of C12_every_reachable_tree_satisfies_the_premises) *)
From PV Require DynInv.
Theorem C13_every_reachable_tree_satisfies_the_premises :
  forall ops, let s := fold_left DynInv.apply_op ops DynInv.root_only in
  DynMkdir.closed2 s /\ DynRemove.ents_ok s /\ DynRemoveExact.uniq s /\ DynMkdirComplete.dirs_ok s /\ DynRemoveConc.tree_ok s.
Proof. exact DynInv.reachable_premises. Qed.

(* ---- the depth bound is an invariant too: on every tree built by operations that move no directory (renameat2 of
   non-directories is included), remove_all never runs out of fuel -- #objects + #entries + 6 suffices, whatever it
   is asked to remove *)
From PV Require DynDepth.
Theorem C13_remove_all_terminates_on_reachable_trees :
  forall ops s d name f, DynDepth.run_ops DynInv.root_only ops = Some s ->
  (length (FSModel.kinds s) + length (FSModel.ents s) + 6 <= f)%nat -> DynRemove.rm_all f s d name <> None.
Proof. exact DynDepth.remove_all_terminates_on_reachable. Qed.

(* executed (non-vacuity): a/ has a sub-directory with a file, a link to a sibling and a link to the
   outside; remove_all("a") on both backends removes a and everything below, follows neither link
   (keep/ and its content stay), returns Ok; the pure function gives the same tree; remove_all of a
   name that does not exist is Ok and changes nothing; "a/." is refused *)
Example C13_dynamic_runs :
  let s := FSModel.build [FSModel.MkDir [b "keep"]; FSModel.MkFile [b "keep"; b "k"]; FSModel.MkDir [b "a"]; FSModel.MkDir [b "a"; b "sub"];
                          FSModel.MkFile [b "a"; b "sub"; b "f"]; FSModel.MkLnk [b "a"; b "tokeep"] (b "../keep");
                          FSModel.MkLnk [b "a"; b "sub"; b "out"] (b "../../..")] in
  let gh := {| ph_fd := 4; ph_mnt := Some Static.PROC_MNT; ph_subset := false; ph_openat2 := true |} in
  let st := {| Dyn.ds := s; Dyn.dt := [(5%Z, FSModel.ROOT); (4%Z, Static.PB s)]; Dyn.dseen := [] |} in
  let emu := {| rs_kernel := false; rs_flags := 0 |} in let kern := {| rs_kernel := true; rs_flags := 0 |} in
  let tree {A} (o : Dyn.doutcome A) := match o with Dyn.DDone st' _ => map (fun e => fst (fst e)) (Dyn.dump (Dyn.ds st')) | _ => [] end in
  let res {A} (o : Dyn.doutcome A) := match o with Dyn.DDone st' a => Some (a, Dyn.dt st', Dyn.dseen st') | _ => None end in
  let want := [[b "keep"]; [b "keep"; b "k"]] in
  tree (Dyn.drun (b "/srv/root") st (root_remove_all 1 true 2 gh 1 12 kern 5 (b "a"))) = want /\
  tree (Dyn.drun (b "/srv/root") st (root_remove_all 1 true 2 gh 1 12 emu 5 (b "keep/../a"))) = want /\
  res (Dyn.drun (b "/srv/root") st (root_remove_all 1 true 2 gh 1 12 kern 5 (b "a"))) = Some (Ok tt, Dyn.dt st, []) /\
  (match DynRemove.rm_all 12 s FSModel.ROOT (b "a") with Some (s', r) => Some (map (fun e => fst (fst e)) (Dyn.dump s'), r) | None => None end) = Some (want, Ok tt) /\
  (match DynRemove.rm_all 12 s FSModel.ROOT (b "nothing") with Some (s', r) => Some (FSModel.ents s', r) | None => None end) = Some (FSModel.ents s, Ok tt) /\
  res (Dyn.drun (b "/srv/root") st (root_remove_all 1 true 2 gh 1 12 kern 5 (b "a/."))) = Some (Err InvalidArgument, Dyn.dt st, []).
Proof. vm_compute. repeat split. Qed.

Print Assumptions C13_dot_refused.
Print Assumptions C13_slash_refused.
Print Assumptions C13_links_not_followed.
Print Assumptions C13_root_op_disciplined.
Print Assumptions C13_balanced.
Print Assumptions C13_stays_beneath.
Print Assumptions C13_beneath_monitor_sound.
Print Assumptions C13_remove_all_computes_spec.
Print Assumptions C13_root_remove_all_exact.
Print Assumptions C13_spec_only_removes.
Print Assumptions C13_spec_removes_only_beneath.
Print Assumptions C13_spec_success_means_gone.
Print Assumptions C13_spec_removes_everything_beneath.
Print Assumptions C13_spec_exact.
Print Assumptions C13_spec_terminates.
Print Assumptions C13_remove_all_post_kernel_backend.
Print Assumptions C13_remove_all_post_emulated_backend.
Print Assumptions C13_absent_entry_is_success_without_change.
Print Assumptions C13_later_caller_succeeds_without_change.
Print Assumptions C13_interference_free_is_spec.
Print Assumptions C13_converges_under_racing_removers.
Print Assumptions C13_every_reachable_tree_satisfies_the_premises.
Print Assumptions C13_remove_all_terminates_on_reachable_trees.
