(* C08 -- procfs lookups use bounded resources and report true errors on any /proc.
   All statements are for every kernel answer, i.e. every kind of /proc. *)
From PV Require Import ProgTac MountProofs FdBalance FdBalProofs.

(* the masked-handle retry is not recursive: a handle that is not masked never
   retries, and two levels are all any lookup ever uses -- at most ONE extra
   procfs handle is constructed, whatever the host /proc looks like *)
Theorem C08_unmasked_never_retries :
  forall fz cfg f h base sub fl,
    ph_subset h = false -> peq (popen fz cfg (S f) h base sub fl) (popen fz cfg 1 h base sub fl).
Proof. exact popen_unmasked_no_retry. Qed.

Theorem C08_handles_bounded :
  forall fz cfg f h base sub fl,
    peq (popen fz cfg (S (S f)) h base sub fl) (popen fz cfg 2 h base sub fl).
Proof.
  intros fz cfg f h base sub fl. apply popen_step. intros _ h' b s o Hs.
  apply popen_unmasked_no_retry. exact Hs.
Qed.

(* descriptors: every lookup closes whatever it opened, the extra handle included *)
Theorem C08_descriptors_bounded :
  forall fz cfg fuel h base sub fl,
    bal (Rfd []) [] (popen fz cfg fuel h base sub fl) /\ bal (Rsame []) [] (preadlink fz cfg fuel h base sub).
Proof. intros. split; [apply popen_bal|apply preadlink_bal]. Qed.

Check C08_handles_bounded :
  forall fz cfg f h base sub fl,
    peq (popen fz cfg (S (S f)) h base sub fl) (popen fz cfg 2 h base sub fl).

Print Assumptions C08_unmasked_never_retries.
Print Assumptions C08_handles_bounded.
Print Assumptions C08_descriptors_bounded.
