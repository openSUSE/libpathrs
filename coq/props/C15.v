(* C15 -- the emulated resolver enforces fs.protected_symlinks exactly like the kernel.
   [k_may_follow] transcribes fs/namei.c may_follow_link (applied only to links in
   a trailing position) and is validated against the running kernel for all 648
   parameter combinations on every run; [emu_may_follow] is the library's rule. *)
From PV Require Import Symlinks SymlinkProofs Discipline ProgTac.

(* all positions: intermediate links are not restricted, exactly as in the kernel (F-G) *)
Theorem C15_positions_exact :
  forall sysctl fsuid dir_mode dir_uid link_uid trailing,
    emu_may_follow sysctl fsuid dir_mode dir_uid link_uid trailing = k_may_follow sysctl fsuid dir_mode dir_uid link_uid trailing.
Proof. intros. unfold emu_may_follow, k_may_follow. rewrite only_trailing. reflexivity. Qed.

Theorem C15_trailing_exact :
  forall sysctl fsuid dir_mode dir_uid link_uid,
    emu_may_follow sysctl fsuid dir_mode dir_uid link_uid true = k_may_follow sysctl fsuid dir_mode dir_uid link_uid true.
Proof. intros. apply C15_positions_exact. Qed.

(* which links are in a trailing position, as a function of the components still to
   walk: nothing left, or nothing but empty components (trailing slashes) -- in the
   library (walk_open consults ps_trailing) exactly as in the kernel *)
Theorem C15_trailing_notion_exact :
  forall rest, OpathM.ps_trailing rest = k_trailing rest.
Proof. intros. unfold ps_trailing, k_trailing. rewrite slashes_trailing. reflexivity. Qed.

Example C15_trailing_examples :
  k_trailing [] = true /\ k_trailing [[]] = true /\ k_trailing [[]; []] = true /\
  k_trailing [[DOT]] = false /\ k_trailing [b "f"] = false /\ k_trailing [[]; b "f"] = false.
Proof. repeat split. Qed.

Theorem C15_off_nothing_refused :
  forall fsuid dir_mode dir_uid link_uid trailing,
    k_may_follow 0 fsuid dir_mode dir_uid link_uid trailing = true /\ emu_may_follow 0 fsuid dir_mode dir_uid link_uid trailing = true.
Proof. intros. unfold k_may_follow, emu_may_follow, ps_rule. cbn. rewrite !orb_true_r. split; reflexivity. Qed.

(* refused exactly when: trailing link, sysctl on, link not owned by the caller,
   directory sticky and world-writable, link not owned by the directory's owner *)
Theorem C15_refusal_characterised :
  forall sysctl fsuid dir_mode dir_uid link_uid trailing,
    k_may_follow sysctl fsuid dir_mode dir_uid link_uid trailing = false <->
    trailing = true /\ sysctl <> 0 /\ link_uid <> fsuid /\ N.land dir_mode STICKY_WRITABLE = STICKY_WRITABLE /\ link_uid <> dir_uid.
Proof.
  intros. unfold k_may_follow, ps_rule. split.
  - intro H. apply orb_false_iff in H as [Ht H]. apply orb_false_iff in H as [H H4].
    apply orb_false_iff in H as [H H3]. apply orb_false_iff in H as [H1 H2].
    repeat split.
    + destruct trailing; [reflexivity|discriminate].
    + apply N.eqb_neq. exact H1.
    + apply N.eqb_neq. exact H2.
    + apply N.eqb_eq. apply negb_false_iff. exact H3.
    + apply N.eqb_neq. exact H4.
  - intros (-> & H1 & H2 & H3 & H4). cbn [negb orb].
    apply N.eqb_neq in H1, H2, H4. rewrite H1, H2, H4, H3, N.eqb_refl. reflexivity.
Qed.

(* the system-call level program decides by that very rule on the kernel's stat answers *)
Theorem C15_prog_rule :
  forall fz sysctl dir link,
    peq (may_follow_link fz sysctl dir link)
        (Call Geteuid (fun ru =>
           dm <-? os (w_fstatat fz dir []) ;;
           lm <-? os (w_fstatat fz link []) ;;
           Ret (if ps_rule sysctl (z2n (as_num ru)) (st_mode dm) (st_uid dm) (st_uid lm) then Ok tt else Err (OsError EACCES)))).
Proof.
  intros. unfold may_follow_link. constructor. intro ru.
  apply peq_bind; [apply peq_refl|]. intros [dm|e]; [|apply peq_refl].
  apply peq_bind; [apply peq_refl|]. intros [lm|e]; [|apply peq_refl].
  unfold ps_rule. destruct (_ || _ || _ || _); apply peq_refl.
Qed.

Example C15_examples :
  k_may_follow 1 2000 1023 0 3000 true = false /\        (* foreign link in /tmp-like dir: refused *)
  k_may_follow 1 2000 1023 0 3000 false = true /\       (* same link as an intermediate component: followed *)
  k_may_follow 1 2000 1023 0 2000 true = true /\        (* own link *)
  k_may_follow 1 2000 1023 3000 3000 true = true /\     (* link owned by the directory owner *)
  k_may_follow 1 2000 511 0 3000 true = true /\         (* directory not sticky *)
  k_may_follow 0 2000 1023 0 3000 true = true.
Proof. repeat split. Qed.

Print Assumptions C15_trailing_exact.
Print Assumptions C15_positions_exact.
Print Assumptions C15_off_nothing_refused.
Print Assumptions C15_refusal_characterised.
Print Assumptions C15_prog_rule.
Print Assumptions C15_trailing_notion_exact.
