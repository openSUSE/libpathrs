(* C03 -- mutating Root operations never touch anything outside the root.
   Proved here (all kernel answers, hence all attacker schedules): every
   effectful call names ONE component relative to a descriptor and never follows
   it; the descriptor is the parent obtained by in-root resolution (C01/C02); "."
   and ".." are refused by remove_all; a missing final name is refused.  That the
   parent descriptor itself lies inside the root under attack is C02's statement;
   the snapshot oracle of tools/props/C03.py judges the real effects. *)
From PV Require Import Discipline ProgTac OpathDisc RootDisc FaultProofs EffectProofs MonitorProofs.
From PV Require C05.

Theorem C03_single_entry_ops :
  forall fz cfg pfuel gh ps rs root path path2 ty flags mode isdir rflags rfuel,
    rfd (ph_fd gh) -> rfd root ->
    all_calls Pdn (root_create fz cfg pfuel gh ps rs root path ty) /\
    all_calls Pdn (root_create_file fz cfg pfuel gh ps rs root path flags mode) /\
    all_calls Pdn (root_remove_inode fz cfg pfuel gh ps rs root path isdir) /\
    all_calls Pdn (root_rename fz cfg pfuel gh ps rs root path path2 rflags) /\
    all_calls Pdn (root_remove_all fz cfg pfuel gh ps rfuel rs root path) /\
    all_calls Pd (root_mkdir_all fz cfg pfuel gh ps rs root path mode).
Proof. exact C05.C05_mutators. Qed.

(* how many of the calls counted by [eff] can be issued, for all answers and on either backend.
   [eff] counts the calls that change the tree (mkdirat, mknodat, unlinkat, linkat, symlinkat,
   renameat(2), open with O_CREAT) and getdents64 / fcntl(F_GETFL), which the dynamic kernel
   model answers from its own state (a program that issues none of them runs on the dynamic
   kernel as on the static one: DynProofs.drun_static):
   lookups -- the emulated walk with all its procfs round-trips, even when a fresh procfs handle
   has to be made on the way, and the openat2 retry loops -- issue none ... *)
Theorem C03_lookups_change_nothing :
  forall fz cfg pfuel gh ps rs root path nf,
    calls_le eff 0 (r_resolve fz cfg pfuel gh ps rs root path nf) /\
    calls_le eff 0 (r_resolve_partial fz cfg pfuel gh ps rs root path nf) /\
    calls_le eff 0 (parent_and_name fz cfg pfuel gh ps rs root path).
Proof. intros. repeat split; [apply r_resolve_ne|apply r_resolve_partial_ne|apply parent_and_name_ne]. Qed.

(* ... and every single-entry operation issues at most one *)
Theorem C03_at_most_one_effect :
  forall fz cfg pfuel gh ps rs root path path2 ty flags mode isdir rflags,
    calls_le eff 1 (root_create fz cfg pfuel gh ps rs root path ty) /\
    calls_le eff 1 (root_create_file fz cfg pfuel gh ps rs root path flags mode) /\
    calls_le eff 1 (root_remove_inode fz cfg pfuel gh ps rs root path isdir) /\
    calls_le eff 1 (root_rename fz cfg pfuel gh ps rs root path path2 rflags).
Proof.
  intros. repeat split; [apply root_create_one|apply root_create_file_one|apply root_remove_inode_one|apply root_rename_one].
Qed.

(* the count as a monitor over recorded traces (tools/props/C14.py evaluates [trace_effects] on the
   traces of the running library): a trace the model program accepts contains no more tree-changing
   calls than the bound proved for the program *)
Theorem C03_effect_count_sound :
  forall A (p : prog A) n t idx a m,
    calls_le eff n p -> run_trace p t idx = RDone a m -> (trace_count eff t <= n)%nat.
Proof. intros. eapply calls_le_sound; eassumption. Qed.

Example C03_eff_examples :
  eff (Mkdirat 5 (b "x") 493) = true /\ eff (Openat 5 (b "x") (N.lor O_WRONLY O_CREAT) 420) = true /\
  eff (Openat 5 (b "x") (N.lor O_PATH O_NOFOLLOW) 0) = false /\ eff (Fstatat 5 (b "x") 256) = false /\
  ~ calls_le eff 0 (Call (Unlinkat 5 (b "x") 0) (fun _ => Ret tt)) /\
  ~ calls_le eff 1 (Call (Unlinkat 5 (b "x") 0) (fun _ => Call (Mkdirat 5 (b "x") 493) (fun _ => Ret tt))).
Proof.
  repeat split; try reflexivity.
  - intro H. inversion H as [| |? ? ? E| |]; subst. discriminate.
  - intro H. inversion H as [|n c k E Hk|? ? ? E| |]; subst; [|discriminate].
    specialize (Hk RUnit). inversion Hk as [| |? ? ? E2| |]; subst. discriminate.
Qed.

Theorem C03_dots_refused :
  forall fz fuel dirfd name,
    dot_or_dotdot name = true -> has_slash name = false ->
    remove_all fz (S fuel) dirfd name = Ret (Err InvalidArgument).
Proof.
  intros fz fuel dirfd name Hd Hs. cbn [remove_all]. rewrite Hs.
  assert (E : REMOVE_ALL_REFUSES_DOTS = true) by reflexivity. rewrite E, Hd. reflexivity.
Qed.

(* a path without a final name (trailing slash, or empty): the whole operation is "resolve the
   parent, close it, InvalidArgument" -- no other system call, for any continuation K *)
Theorem C03_no_name_refused :
  forall fz cfg pfuel gh ps B (K : Z * bytes -> prog (result B ekind)) rs root path dirp,
    path_split path = Some (Ok (dirp, None)) ->
    peq (dn <-? parent_and_name fz cfg pfuel gh ps rs root path ;; K dn)
        (dir <-? r_resolve fz cfg pfuel gh ps rs root dirp false ;; close dir ;;; Ret (Err InvalidArgument)).
Proof.
  intros fz cfg pfuel gh ps B K rs root path dirp Hsp. unfold parent_and_name, resolve_parent. rewrite Hsp.
  eapply peq_trans; [apply bindR_assoc|]. eapply peq_trans; [apply bindR_assoc|].
  apply peq_bind; [apply peq_refl|]. intros [dir|e]; cbn; [|apply peq_refl].
  constructor. intro r. apply peq_refl.
Qed.

Print Assumptions C03_single_entry_ops.
Print Assumptions C03_dots_refused.
Print Assumptions C03_no_name_refused.
Print Assumptions C03_lookups_change_nothing.
Print Assumptions C03_at_most_one_effect.
Print Assumptions C03_effect_count_sound.
