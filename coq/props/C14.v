(* C14 -- single-entry operations act on exactly (in-root parent, final name).  Three parts:
   for every byte string, where path_split cuts and what the operations do with the two halves
   (for all answers); on the static kernel, the *at call is made on a descriptor open on the
   object the in-root walk of the parent ends on; on the dynamic kernel, the state afterwards
   is exactly what that call produces on (parent object, name). *)
From PV Require StaticEffects.
From PV Require Import Discipline ProgTac PathProofs OpathDisc RootDisc FSModel FSProofs CApi.
From PV Require C03 C17.
Open Scope N_scope.

(* The (parent, name) pair every single-entry operation acts on: the parent is
   the in-root resolution (links followed) of everything before the last '/',
   the name is the last component -- non-empty, without '/', passed to the *at call
   as is (never resolved, so a final symlink is never followed). *)
Theorem C14_parent_and_name :
  forall fz cfg pfuel gh ps rs root path,
    match path_split path with
    | Some (Ok (dirp, Some name)) =>
        peq (parent_and_name fz cfg pfuel gh ps rs root path)
            (dir <-? r_resolve fz cfg pfuel gh ps rs root dirp false ;; Ret (Ok (dir, name)))
        /\ name <> [] /\ has_slash name = false
    | Some (Ok (dirp, None)) =>
        peq (parent_and_name fz cfg pfuel gh ps rs root path)
            (dir <-? r_resolve fz cfg pfuel gh ps rs root dirp false ;; close dir ;;; Ret (Err InvalidArgument))
        /\ (path = [] \/ exists q, path = q ++ [SLASH])
    | _ => False
    end.
Proof. exact parent_and_name_shape. Qed.

(* where the split happens, for every byte string *)
Theorem C14_split_shape :
  forall p d n, path_split p = Some (Ok (d, Some n)) ->
    (has_slash p = false /\ d = [DOT] /\ n = p) \/
    (exists d0, p = d0 ++ SLASH :: n /\ d = (if is_nil d0 then [SLASH] else d0)).
Proof.
  intros p d n H. destruct (path_split_cases p) as [[Hs E]|(d0 & n0 & Hp & _ & E)]; rewrite E in H.
  - left. destruct (is_nil p); [discriminate H|]. injection H as <- <-. auto.
  - right. exists d0. destruct (is_nil n0); [discriminate H|]. injection H as <- <-. auto.
Qed.

(* a trailing slash (or an empty path) is rejected as an invalid argument and the
   operation does nothing else than resolve and close the parent -- for every
   continuation, i.e. for create (all inode types), create_file, remove_file,
   remove_dir, remove_all and both sides of rename *)
Theorem C14_trailing_slash :
  forall fz cfg pfuel gh ps B (K : Z * bytes -> prog (result B ekind)) rs root path dirp,
    path_split path = Some (Ok (dirp, None)) ->
    peq (dn <-? parent_and_name fz cfg pfuel gh ps rs root path ;; K dn)
        (dir <-? r_resolve fz cfg pfuel gh ps rs root dirp false ;; close dir ;;; Ret (Err InvalidArgument)).
Proof. exact C03.C03_no_name_refused. Qed.

(* every call of the single-entry operations names one component relative to a
   descriptor and forbids following it (C05), for all kernel answers *)
Theorem C14_final_not_followed :
  forall fz cfg pfuel gh ps rs root path path2 ty flags mode isdir rflags,
    rfd (ph_fd gh) -> rfd root ->
    all_calls Pdn (root_create fz cfg pfuel gh ps rs root path ty) /\
    all_calls Pdn (root_create_file fz cfg pfuel gh ps rs root path flags mode) /\
    all_calls Pdn (root_remove_inode fz cfg pfuel gh ps rs root path isdir) /\
    all_calls Pdn (root_rename fz cfg pfuel gh ps rs root path path2 rflags).
Proof.
  intros. repeat split; eapply okp_all_calls;
    [apply root_create_ok|apply root_create_file_ok|apply root_remove_inode_ok|apply root_rename_ok]; assumption.
Qed.

(* the parent really is the kernel's in-root resolution of the prefix (C01) *)
Theorem C14_parent_is_in_root_resolution :
  forall s df, wf s df -> forall p nosym, p <> [] -> kwalk s p false nosym <> WBudget ->
    ewalk s p false nosym = kwalk s p false nosym.
Proof. intros s df H p nosym Hp Hb. apply (emu_eq_kernel s df H); [right; exact Hp|exact Hb]. Qed.

Theorem C14_mknod_mode_decode :
  forall mode dev,
    match c_mknod_type mode dev with
    | Ok (IFile p) => N.land mode S_IFMT = S_IFREG /\ p = N.ldiff mode S_IFMT
    | Ok (IDirectory p) => N.land mode S_IFMT = S_IFDIR /\ p = N.ldiff mode S_IFMT
    | Ok (IBlockDev p d) => N.land mode S_IFMT = S_IFBLK /\ p = N.ldiff mode S_IFMT /\ d = dev
    | Ok (ICharDev p d) => N.land mode S_IFMT = S_IFCHR /\ p = N.ldiff mode S_IFMT /\ d = dev
    | Ok (IFifo p) => N.land mode S_IFMT = S_IFIFO /\ p = N.ldiff mode S_IFMT
    | Ok _ => False
    | Err NotImplemented => N.land mode S_IFMT = S_IFSOCK
    | Err InvalidArgument => ~ In (N.land mode S_IFMT) [S_IFREG; S_IFDIR; S_IFBLK; S_IFCHR; S_IFIFO; S_IFSOCK]
    | Err _ => False
    end.
Proof. exact C17.C17_mknod_mode_decode. Qed.

Example C14_split_examples :
  path_split (b "a/b/c") = Some (Ok (b "a/b", Some (b "c"))) /\
  path_split (b "c") = Some (Ok (b ".", Some (b "c"))) /\
  path_split (b "/c") = Some (Ok (b "/", Some (b "c"))) /\
  path_split (b "a/b/") = Some (Ok (b "a/b", None)) /\
  path_split (b "a/..") = Some (Ok (b "a", Some (b ".."))) /\
  path_split [] = Some (Ok (b ".", None)).
Proof. repeat split; reflexivity. Qed.

(* ... and, executed on the static kernel model over any well-formed tree, the emulated
   backend hands the *at call a descriptor open on exactly the object the in-root
   walk of the prefix ends on, together with path_split's last component (C01's
   refinement composed with the split; premise on check_current as in C01) *)
Theorem C14_static_parent_object :
  forall s rp F fz o2 pfuel gh ps df rs t root path dirp name,
    StaticProofs.closed s -> fz <> 0%nat -> StaticProofs.chk_static_ok s rp F (OpathM.check_current fz o2 pfuel gh) -> wf s df -> StaticProofs.links_ok s ->
    rs_kernel rs = false ->
    path_split path = Some (Ok (dirp, Some name)) -> has_nul dirp = false ->
    StaticProofs.Frame s F t -> Static.tget t root = Some ROOT ->
    match ewalk s dirp false (has (rs_flags rs) RESOLVE_NO_SYMLINKS) with
    | WOk o => exists t' fd, Static.run s rp t (parent_and_name fz o2 pfuel gh ps rs root path) = Static.Done t' (Ok (fd, name))
                             /\ Static.tget t' fd = Some o
    | WErr n => exists t', Static.run s rp t (parent_and_name fz o2 pfuel gh ps rs root path) = Static.Done t' (Err (OsError n))
    | WBudget => exists t', Static.run s rp t (parent_and_name fz o2 pfuel gh ps rs root path) = Static.Done t' (Err (OsError ELOOP))
    end.
Proof. exact StaticProofs.parent_and_name_static. Qed.

(* ... and the call that changes the tree is made on that descriptor with that name:
   executing create (directory / file / fifo / device node) and remove_file / remove_dir of the
   emulated backend on the static kernel over any well-formed tree ARRIVES AT mkdirat /
   mknodat / unlinkat on (descriptor open on the object the in-root walk of the parent path
   ends on, path_split's last component).  [reaches] is "execution on the static kernel
   arrives at this call"; that no other tree-changing call is issued before or after it is
   C03's statement for all answers and is counted on every real trace by tools/props/C14.py. *)
Theorem C14_create_dir_acts_on_parent_object :
  forall s rp F df fz pfuel o2 gh ps rs t root path dirp name o m,
    StaticProofs.closed s -> fz <> 0%nat -> StaticProofs.chk_static_ok s rp F (OpathM.check_current fz o2 pfuel gh) ->
    wf s df -> StaticProofs.links_ok s -> rs_kernel rs = false ->
    path_split path = Some (Ok (dirp, Some name)) -> has_nul dirp = false -> has_nul name = false ->
    StaticProofs.Frame s F t -> Static.tget t root = Some ROOT ->
    ewalk s dirp false (has (rs_flags rs) RESOLVE_NO_SYMLINKS) = WOk o ->
    exists t1 dir, Static.tget t1 dir = Some o /\
      StaticEffects.reaches s rp t (root_create fz o2 pfuel gh ps rs root path (IDirectory m))
                                  (Mkdirat dir name (N.land (perm m) MODE_BITS)) t1.
Proof.
  intros. unfold root_create. eapply StaticEffects.reaches_parent; [eassumption ..|].
  intros dir Hv. apply StaticEffects.head_os_bind, StaticEffects.head_simple1; assumption.
Qed.

Theorem C14_remove_acts_on_parent_object :
  forall s rp F df fz pfuel o2 gh ps rs t root path dirp name o isdir,
    StaticProofs.closed s -> fz <> 0%nat -> StaticProofs.chk_static_ok s rp F (OpathM.check_current fz o2 pfuel gh) ->
    wf s df -> StaticProofs.links_ok s -> rs_kernel rs = false ->
    path_split path = Some (Ok (dirp, Some name)) -> has_nul dirp = false -> has_nul name = false ->
    StaticProofs.Frame s F t -> Static.tget t root = Some ROOT ->
    ewalk s dirp false (has (rs_flags rs) RESOLVE_NO_SYMLINKS) = WOk o ->
    exists t1 dir, Static.tget t1 dir = Some o /\
      StaticEffects.reaches s rp t (root_remove_inode fz o2 pfuel gh ps rs root path isdir)
                                  (Unlinkat dir name (if isdir then AT_REMOVEDIR else 0)) t1.
Proof.
  intros. unfold root_remove_inode. eapply StaticEffects.reaches_parent; [eassumption ..|].
  intros dir Hv. apply StaticEffects.head_os_bind, StaticEffects.head_simple1; assumption.
Qed.

Theorem C14_create_node_acts_on_parent_object :
  forall s rp F df fz pfuel o2 gh ps rs t root path dirp name o raw dev ty,
    StaticProofs.closed s -> fz <> 0%nat -> StaticProofs.chk_static_ok s rp F (OpathM.check_current fz o2 pfuel gh) ->
    wf s df -> StaticProofs.links_ok s -> rs_kernel rs = false ->
    (ty = IFile raw \/ ty = IFifo raw \/ ty = ICharDev raw dev \/ ty = IBlockDev raw dev) ->
    path_split path = Some (Ok (dirp, Some name)) -> has_nul dirp = false -> has_nul name = false ->
    StaticProofs.Frame s F t -> Static.tget t root = Some ROOT ->
    ewalk s dirp false (has (rs_flags rs) RESOLVE_NO_SYMLINKS) = WOk o ->
    exists t1 dir mode d, Static.tget t1 dir = Some o /\
      StaticEffects.reaches s rp t (root_create fz o2 pfuel gh ps rs root path ty) (Mknodat dir name mode d) t1.
Proof.
  intros until ty. intros Hcl Hfz Hchk Hwf Hl Hk Hty. intros.
  assert (Hnz : StaticEffects.node_type ty <> 0) by (destruct Hty as [ -> | [ -> | [ -> | -> ] ] ]; discriminate).
  edestruct StaticEffects.create_node_reaches_exact as (t1 & dir & Hdir & Hr); [eassumption ..|].
  exists t1, dir. eexists. eexists. split; [exact Hdir|exact Hr].
Qed.

(* the mknodat call exactly: the inode kind comes from the InodeType alone, the permission
   bits are the caller's mode & 07777 -- whatever S_IFMT bits that mode word carries are
   dropped -- and the device number is the one given *)
Theorem C14_create_node_exact_call :
  forall s rp F df fz pfuel o2 gh ps rs t root path dirp name o ty,
    StaticProofs.closed s -> fz <> 0%nat -> StaticProofs.chk_static_ok s rp F (OpathM.check_current fz o2 pfuel gh) ->
    wf s df -> StaticProofs.links_ok s -> rs_kernel rs = false ->
    StaticEffects.node_type ty <> 0 ->
    path_split path = Some (Ok (dirp, Some name)) -> has_nul dirp = false -> has_nul name = false ->
    StaticProofs.Frame s F t -> Static.tget t root = Some ROOT ->
    ewalk s dirp false (has (rs_flags rs) RESOLVE_NO_SYMLINKS) = WOk o ->
    exists t1 dir, Static.tget t1 dir = Some o /\
      StaticEffects.reaches s rp t (root_create fz o2 pfuel gh ps rs root path ty)
        (Mknodat dir name (N.lor (StaticEffects.node_type ty) (N.land (StaticEffects.node_raw ty) MODE_BITS)) (StaticEffects.node_dev ty)) t1.
Proof. intros. eapply StaticEffects.create_node_reaches_exact; eassumption. Qed.

Example C14_node_type_table :
  StaticEffects.node_type (IFile 16872) = S_IFREG /\ StaticEffects.node_type (IFifo 33184) = S_IFIFO /\
  StaticEffects.node_type (ICharDev 16872 259) = S_IFCHR /\ StaticEffects.node_type (IBlockDev 33184 259) = S_IFBLK /\
  N.lor (StaticEffects.node_type (IFile 16872)) (N.land (StaticEffects.node_raw (IFile 16872)) MODE_BITS) = 33256.
Proof. repeat split; reflexivity. Qed.

Theorem C14_create_symlink_acts_on_parent_object :
  forall s rp F df fz pfuel o2 gh ps rs t root path dirp name o target,
    StaticProofs.closed s -> fz <> 0%nat -> StaticProofs.chk_static_ok s rp F (OpathM.check_current fz o2 pfuel gh) ->
    wf s df -> StaticProofs.links_ok s -> rs_kernel rs = false ->
    path_split path = Some (Ok (dirp, Some name)) -> has_nul dirp = false -> has_nul name = false -> has_nul target = false ->
    StaticProofs.Frame s F t -> Static.tget t root = Some ROOT ->
    ewalk s dirp false (has (rs_flags rs) RESOLVE_NO_SYMLINKS) = WOk o ->
    exists t1 dir, Static.tget t1 dir = Some o /\
      StaticEffects.reaches s rp t (root_create fz o2 pfuel gh ps rs root path (ISymlink target)) (Symlinkat target dir name) t1.
Proof.
  intros. unfold root_create. eapply StaticEffects.reaches_parent; [eassumption ..|].
  intros dir Hv. apply StaticEffects.head_os_bind, StaticEffects.head_w_symlinkat; assumption.
Qed.

Theorem C14_create_file_acts_on_parent_object :
  forall s rp F df fz pfuel o2 gh ps rs t root path dirp name o flags mode,
    StaticProofs.closed s -> fz <> 0%nat -> StaticProofs.chk_static_ok s rp F (OpathM.check_current fz o2 pfuel gh) ->
    wf s df -> StaticProofs.links_ok s -> rs_kernel rs = false ->
    has flags O_PATH = false ->
    path_split path = Some (Ok (dirp, Some name)) -> has_nul dirp = false -> has_nul name = false ->
    StaticProofs.Frame s F t -> Static.tget t root = Some ROOT ->
    ewalk s dirp false (has (rs_flags rs) RESOLVE_NO_SYMLINKS) = WOk o ->
    exists t1 dir, Static.tget t1 dir = Some o /\
      StaticEffects.reaches s rp t (root_create_file fz o2 pfuel gh ps rs root path flags mode)
        (Openat dir name (N.lor (N.lor (N.lor (N.lor flags CREATE_FILE_FORCED) OPENAT_NOFOLLOW_FORCED) OPENAT_FORCED) O_LARGEFILE)
                (N.land mode MODE_BITS)) t1.
Proof.
  intros until mode. intros Hcl Hfz Hchk Hwf Hl Hk Hop. intros. unfold root_create_file. rewrite Hop, andb_false_r.
  eapply StaticEffects.reaches_parent; [eassumption ..|].
  intros dir Hv. apply StaticEffects.head_os_bind, StaticEffects.head_w_openat; assumption.
Qed.

(* two parents: the descriptor of the first parent survives the second walk (C11's balance
   judgement read on the static kernel), so rename and hard links arrive at renameat(2) /
   linkat on (source parent object, name, destination parent object, name) *)
Theorem C14_rename_acts_on_parent_objects :
  forall s rp F df fz pfuel o2 gh ps rs t root src dst sdirp sname ddirp dname o1 o3 fl,
    StaticProofs.closed s -> fz <> 0%nat -> StaticProofs.chk_static_ok s rp F (OpathM.check_current fz o2 pfuel gh) ->
    wf s df -> StaticProofs.links_ok s -> rs_kernel rs = false ->
    path_split src = Some (Ok (sdirp, Some sname)) -> has_nul sdirp = false -> has_nul sname = false ->
    path_split dst = Some (Ok (ddirp, Some dname)) -> has_nul ddirp = false -> has_nul dname = false ->
    StaticProofs.Frame s F t -> Static.tget t root = Some ROOT ->
    ewalk s sdirp false (has (rs_flags rs) RESOLVE_NO_SYMLINKS) = WOk o1 ->
    ewalk s ddirp false (has (rs_flags rs) RESOLVE_NO_SYMLINKS) = WOk o3 ->
    exists t2 d1 d2, Static.tget t2 d1 = Some o1 /\ Static.tget t2 d2 = Some o3 /\
      StaticEffects.reaches s rp t (root_rename fz o2 pfuel gh ps rs root src dst fl)
        (if N.eqb fl 0 then Renameat d1 sname d2 dname else Renameat2 d1 sname d2 dname fl) t2.
Proof.
  intros. unfold root_rename. eapply StaticEffects.reaches_two_parents with (p1 := src) (p2 := dst); [eassumption ..|].
  intros t1 t2 d1 d2 Hrun Hv1 Hv2. cbn beta iota. eapply StaticEffects.reaches_bind_done; [exact Hrun|]. cbn beta iota.
  apply StaticEffects.reaches_head, StaticEffects.head_os_bind. unfold w_renameat2, w_renameat.
  destruct (N.eqb fl 0); apply StaticEffects.head_two_fd; assumption.
Qed.

Theorem C14_hardlink_acts_on_parent_objects :
  forall s rp F df fz pfuel o2 gh ps rs t root path target dirp name tdirp tname o1 o3,
    StaticProofs.closed s -> fz <> 0%nat -> StaticProofs.chk_static_ok s rp F (OpathM.check_current fz o2 pfuel gh) ->
    wf s df -> StaticProofs.links_ok s -> rs_kernel rs = false ->
    path_split path = Some (Ok (dirp, Some name)) -> has_nul dirp = false -> has_nul name = false ->
    path_split target = Some (Ok (tdirp, Some tname)) -> has_nul tdirp = false -> has_nul tname = false ->
    StaticProofs.Frame s F t -> Static.tget t root = Some ROOT ->
    ewalk s dirp false (has (rs_flags rs) RESOLVE_NO_SYMLINKS) = WOk o1 ->
    ewalk s tdirp false (has (rs_flags rs) RESOLVE_NO_SYMLINKS) = WOk o3 ->
    exists t2 d1 d2, Static.tget t2 d1 = Some o1 /\ Static.tget t2 d2 = Some o3 /\
      StaticEffects.reaches s rp t (root_create fz o2 pfuel gh ps rs root path (IHardlink target)) (Linkat d2 tname d1 name LINKAT_FLAGS) t2.
Proof.
  intros. unfold root_create. eapply StaticEffects.reaches_two_parents with (p1 := path) (p2 := target); [eassumption ..|].
  intros t1 t2 d1 d2 Hrun Hv1 Hv2. cbn beta iota. eapply StaticEffects.reaches_bind_done; [exact Hrun|]. cbn beta iota.
  apply StaticEffects.reaches_head, StaticEffects.head_os_bind, StaticEffects.head_two_fd; assumption.
Qed.

(* ---- the full functional statement, on the DYNAMIC kernel model (theories/Dyn.v) -------------
   The state is (tree, descriptor table, directory streams read to their end); the calls that
   change the tree have their effect on it ([create_sem], [unlink_sem], [link_sem], [rename_sem],
   [creat_sem]: tied to the running kernel by T2d, tools/props/C14.py).  [parent_ok] is "the
   parent lookup of this path ended with [dir] open on object [o], every other descriptor as it
   was"; each backend establishes it from its walk (the emulated one by C01's refinement and
   C11's balance through the bridge DynProofs.drun_static, the kernel one by one openat2).
   Executing the operation then ends in EXACTLY the state the *at call produces on (o, name):
   its tree, or the old tree and its errno; [dir] closed again; nothing else. *)
From PV Require DynEffects.

Theorem C14_bridge_static_to_dynamic :
  forall rp A (p : prog A), FaultProofs.calls_le EffectProofs.eff 0 p -> forall s t t1 a,
    Static.run s rp t p = Static.Done t1 a ->
    Dyn.drun rp {| Dyn.ds := s; Dyn.dt := t; Dyn.dseen := [] |} p = Dyn.DDone {| Dyn.ds := s; Dyn.dt := t1; Dyn.dseen := [] |} a.
Proof. exact DynProofs.drun_static. Qed.

Theorem C14_parent_ok_emulated :
  forall s rp F df fz pfuel o2 gh ps,
    StaticProofs.closed s -> fz <> 0%nat -> StaticProofs.chk_static_ok s rp F (OpathM.check_current fz o2 pfuel gh) ->
    wf s df -> StaticProofs.links_ok s -> forall rs, rs_kernel rs = false ->
    forall t root path dirp name o,
    path_split path = Some (Ok (dirp, Some name)) -> has_nul dirp = false ->
    StaticProofs.Frame s F t -> Static.tget t root = Some ROOT ->
    ewalk s dirp false (has (rs_flags rs) RESOLVE_NO_SYMLINKS) = WOk o ->
    exists t1 dir, DynEffects.parent_ok s rp fz pfuel o2 gh ps rs t root path t1 dir name o /\ StaticProofs.Frame s F t1 /\ Static.tget t1 root = Some ROOT.
Proof. exact DynEffects.parent_ok_emu. Qed.

Theorem C14_parent_ok_kernel :
  forall s rp fz pfuel gh ps, StaticProofs.closed s -> fz <> 0%nat -> forall rs, rs_kernel rs = true ->
    forall t root path dirp name o,
    path_split path = Some (Ok (dirp, Some name)) -> has_nul dirp = false ->
    Static.tget t root = Some ROOT ->
    kwalk s dirp false (has (N.lor OPENAT2_RESOLVE_RESOLVE (rs_flags rs)) RESOLVE_NO_SYMLINKS) = WOk o ->
    DynEffects.parent_ok s rp fz pfuel true gh ps rs t root path ((Static.fresh t, o) :: t) (Static.fresh t) name o.
Proof. exact DynEffects.parent_ok_kern. Qed.

Theorem C14_create_dir_exact_effect :
  forall s rp fz pfuel o2 gh ps rs, fz <> 0%nat -> forall t root path t1 dir name o m,
    DynEffects.parent_ok s rp fz pfuel o2 gh ps rs t root path t1 dir name o -> has_nul name = false ->
    Dyn.drun rp {| Dyn.ds := s; Dyn.dt := t; Dyn.dseen := [] |} (root_create fz o2 pfuel gh ps rs root path (IDirectory m)) =
    DynProofs.after_unit s t1 dir (Dyn.create_sem s o name KDir).
Proof.
  intros s rp fz pfuel o2 gh ps rs Hfz t root path t1 dir name o m Hp Hnn.
  apply (DynEffects.one_parent_effect s rp fz pfuel o2 gh ps rs (fun d n => w_mkdirat fz d n (perm m)) _ _ _ _ _ _ _ _ Hp).
  intros Hd Hlt. exact (DynProofs.drun_w_mkdirat rp fz Hfz s t1 [] dir o name _ Hd Hlt Hnn).
Qed.

Theorem C14_create_node_exact_effect :
  forall s rp fz pfuel o2 gh ps rs, fz <> 0%nat -> forall t root path t1 dir name o ty k,
    DynEffects.parent_ok s rp fz pfuel o2 gh ps rs t root path t1 dir name o -> has_nul name = false ->
    StaticEffects.node_type ty <> 0 ->
    Dyn.kind_of_mode (N.lor (StaticEffects.node_type ty) (N.land (StaticEffects.node_raw ty) MODE_BITS)) = Some k ->
    Dyn.drun rp {| Dyn.ds := s; Dyn.dt := t; Dyn.dseen := [] |} (root_create fz o2 pfuel gh ps rs root path ty) =
    DynProofs.after_unit s t1 dir (Dyn.create_sem s o name k).
Proof.
  intros s rp fz pfuel o2 gh ps rs Hfz t root path t1 dir name o ty k Hp Hnn Hty Hk.
  destruct ty as [m|m|tg|tg|m|m d|m d]; cbn [StaticEffects.node_type] in Hty; try (exfalso; apply Hty; reflexivity);
    exact (DynEffects.mknod_exact s rp fz pfuel o2 gh ps rs Hfz _ _ _ k t root path t1 dir name o Hp Hnn eq_refl Hk).
Qed.

Theorem C14_create_symlink_exact_effect :
  forall s rp fz pfuel o2 gh ps rs, fz <> 0%nat -> forall t root path t1 dir name o target,
    DynEffects.parent_ok s rp fz pfuel o2 gh ps rs t root path t1 dir name o -> has_nul name = false -> has_nul target = false ->
    Dyn.drun rp {| Dyn.ds := s; Dyn.dt := t; Dyn.dseen := [] |} (root_create fz o2 pfuel gh ps rs root path (ISymlink target)) =
    DynProofs.after_unit s t1 dir (if is_nil target then Dyn.EErr ENOENT else Dyn.create_sem s o name (KLnk target)).
Proof.
  intros s rp fz pfuel o2 gh ps rs Hfz t root path t1 dir name o target Hp Hnn Hnt.
  apply (DynEffects.one_parent_effect s rp fz pfuel o2 gh ps rs (fun d n => w_symlinkat fz target d n) _ _ _ _ _ _ _ _ Hp).
  intros Hd Hlt. exact (DynProofs.drun_w_symlinkat rp fz Hfz s t1 [] target dir o name Hd Hlt Hnt Hnn).
Qed.

Theorem C14_remove_exact_effect :
  forall s rp fz pfuel o2 gh ps rs, fz <> 0%nat -> forall t root path t1 dir name o isdir,
    DynEffects.parent_ok s rp fz pfuel o2 gh ps rs t root path t1 dir name o -> has_nul name = false ->
    Dyn.drun rp {| Dyn.ds := s; Dyn.dt := t; Dyn.dseen := [] |} (root_remove_inode fz o2 pfuel gh ps rs root path isdir) =
    DynProofs.after_unit s t1 dir (Dyn.unlink_sem s o name (if isdir then AT_REMOVEDIR else 0)).
Proof.
  intros s rp fz pfuel o2 gh ps rs Hfz t root path t1 dir name o isdir Hp Hnn.
  apply (DynEffects.one_parent_effect s rp fz pfuel o2 gh ps rs (fun d n => w_unlinkat fz d n (if isdir then AT_REMOVEDIR else 0)) _ _ _ _ _ _ _ _ Hp).
  intros Hd Hlt. exact (DynProofs.drun_w_unlinkat rp fz Hfz s t1 [] dir o name _ Hd Hlt Hnn).
Qed.

(* create_file: the descriptor returned is open on the very object that now is (or already
   was) under that name in the resulting tree *)
Theorem C14_create_file_exact_effect :
  forall s rp fz pfuel o2 gh ps rs, fz <> 0%nat -> forall t root path t1 dir name o flags mode,
    has flags O_PATH = false ->
    DynEffects.parent_ok s rp fz pfuel o2 gh ps rs t root path t1 dir name o -> has_nul name = false ->
    let fl := N.lor (N.lor (N.lor (N.lor flags CREATE_FILE_FORCED) OPENAT_NOFOLLOW_FORCED) OPENAT_FORCED) O_LARGEFILE in
    Dyn.drun rp {| Dyn.ds := s; Dyn.dt := t; Dyn.dseen := [] |} (root_create_file fz o2 pfuel gh ps rs root path flags mode) =
    match Dyn.creat_sem s o name fl with
    | Dyn.EOpen s' ob =>
        let t2 := Dyn.reloc (Dyn.NPB s) (Dyn.NPB s') t1 in
        Dyn.DDone {| Dyn.ds := s'; Dyn.dt := Static.tdel ((Static.fresh t2, ob) :: t2) dir; Dyn.dseen := [] |} (Ok (Static.fresh t2))
    | Dyn.EErr e => Dyn.DDone {| Dyn.ds := s; Dyn.dt := Static.tdel t1 dir; Dyn.dseen := [] |} (Err (OsError e))
    | Dyn.EOut => Dyn.DDone {| Dyn.ds := s; Dyn.dt := Static.tdel t1 dir; Dyn.dseen := [] |} (Err (OsError ENOSYS))
    | Dyn.EUnit _ => Dyn.DNoFuel
    end.
Proof.
  intros s rp fz pfuel o2 gh ps rs Hfz t root path t1 dir name o flags mode Hop Hp Hnn fl.
  unfold root_create_file. rewrite Hop, andb_false_r, (DynEffects.drun_parent s rp fz pfuel o2 gh ps rs _ _ _ _ _ _ _ _ Hp).
  destruct Hp as (_ & Hd & Hlt & _).
  rewrite DynProofs.drun_bind, DynProofs.drun_os, (DynEffects.drun_w_openat_creat s rp fz Hfz t1 dir o name _ mode Hd Hlt Hnn).
  - fold fl. destruct (Dyn.creat_sem s o name fl); try reflexivity; rewrite DynProofs.drun_bind; reflexivity.
  - apply BitsProofs.has_lor_l, BitsProofs.has_lor_l, BitsProofs.has_lor_l, BitsProofs.has_lor_r. reflexivity.
Qed.

(* create_file refuses O_PATH before any system call (constant CREATE_FILE_REFUSES_OPATH): with O_PATH the kernel
   drops O_CREAT and would OPEN the unresolved final component, ".." for one (finding F-S, DESIGN.md 14.3).
   The theorems above are about the other flag words *)
Theorem C14_create_file_refuses_o_path :
  forall fz o2 pfuel gh ps rs root path flags mode,
    has flags O_PATH = true -> root_create_file fz o2 pfuel gh ps rs root path flags mode = Ret (Err InvalidArgument).
Proof. intros fz o2 pfuel gh ps rs root path flags mode H. unfold root_create_file. rewrite H. reflexivity. Qed.

Theorem C14_rename_exact_effect :
  forall s rp fz pfuel o2 gh ps rs, fz <> 0%nat -> forall t root src dst t1 d1 sname o1 t2 d2 dname o3 fl,
    DynEffects.parent_ok s rp fz pfuel o2 gh ps rs t root src t1 d1 sname o1 ->
    DynEffects.parent_ok s rp fz pfuel o2 gh ps rs t1 root dst t2 d2 dname o3 ->
    has_nul sname = false -> has_nul dname = false ->
    Dyn.drun rp {| Dyn.ds := s; Dyn.dt := t; Dyn.dseen := [] |} (root_rename fz o2 pfuel gh ps rs root src dst fl) =
    match Dyn.rename_sem s o1 sname o3 dname fl with
    | Dyn.EUnit s' => Dyn.DDone {| Dyn.ds := s'; Dyn.dt := Static.tdel (Static.tdel (Dyn.reloc (Dyn.NPB s) (Dyn.NPB s') t2) d2) d1; Dyn.dseen := [] |} (Ok tt)
    | Dyn.EErr e => Dyn.DDone {| Dyn.ds := s; Dyn.dt := Static.tdel (Static.tdel t2 d2) d1; Dyn.dseen := [] |} (Err (OsError e))
    | Dyn.EOut => Dyn.DDone {| Dyn.ds := s; Dyn.dt := Static.tdel (Static.tdel t2 d2) d1; Dyn.dseen := [] |} (Err (OsError ENOSYS))
    | Dyn.EOpen _ _ => Dyn.DNoFuel
    end.
Proof.
  intros s rp fz pfuel o2 gh ps rs Hfz t root src dst t1 d1 sname o1 t2 d2 dname o3 fl Hp1 Hp2 Hn1 Hn2.
  unfold root_rename. rewrite (DynEffects.drun_parent2 s rp fz pfuel o2 gh ps rs _ _ _ _ _ _ _ _ _ _ _ _ _ Hp1 Hp2).
  pose proof (DynEffects.parent_ok_keeps s rp fz pfuel o2 gh ps rs _ _ _ _ _ _ _ _ _ _ _ _ Hp1 Hp2) as Hd1.
  destruct Hp1 as (_ & _ & Hlt1 & _). destruct Hp2 as (_ & Hd2 & Hlt2 & _).
  exact (DynEffects.drun_after_unit2 s rp t2 d2 d1 _ _ (DynProofs.drun_w_renameat2 rp fz Hfz s t2 [] d1 o1 sname d2 o3 dname fl Hd1 Hlt1 Hd2 Hlt2 Hn1 Hn2)).
Qed.

Theorem C14_hardlink_exact_effect :
  forall s rp fz pfuel o2 gh ps rs, fz <> 0%nat -> forall t root path target t1 d1 name o1 t2 d2 tname o3,
    DynEffects.parent_ok s rp fz pfuel o2 gh ps rs t root path t1 d1 name o1 ->
    DynEffects.parent_ok s rp fz pfuel o2 gh ps rs t1 root target t2 d2 tname o3 ->
    has_nul name = false -> has_nul tname = false ->
    Dyn.drun rp {| Dyn.ds := s; Dyn.dt := t; Dyn.dseen := [] |} (root_create fz o2 pfuel gh ps rs root path (IHardlink target)) =
    match Dyn.link_sem s o3 tname o1 name LINKAT_FLAGS with
    | Dyn.EUnit s' => Dyn.DDone {| Dyn.ds := s'; Dyn.dt := Static.tdel (Static.tdel (Dyn.reloc (Dyn.NPB s) (Dyn.NPB s') t2) d1) d2; Dyn.dseen := [] |} (Ok tt)
    | Dyn.EErr e => Dyn.DDone {| Dyn.ds := s; Dyn.dt := Static.tdel (Static.tdel t2 d1) d2; Dyn.dseen := [] |} (Err (OsError e))
    | Dyn.EOut => Dyn.DDone {| Dyn.ds := s; Dyn.dt := Static.tdel (Static.tdel t2 d1) d2; Dyn.dseen := [] |} (Err (OsError ENOSYS))
    | Dyn.EOpen _ _ => Dyn.DNoFuel
    end.
Proof.
  intros s rp fz pfuel o2 gh ps rs Hfz t root path target t1 d1 name o1 t2 d2 tname o3 Hp1 Hp2 Hn1 Hn2.
  unfold root_create. rewrite (DynEffects.drun_parent2 s rp fz pfuel o2 gh ps rs _ _ _ _ _ _ _ _ _ _ _ _ _ Hp1 Hp2).
  pose proof (DynEffects.parent_ok_keeps s rp fz pfuel o2 gh ps rs _ _ _ _ _ _ _ _ _ _ _ _ Hp1 Hp2) as Hd1.
  destruct Hp1 as (_ & _ & Hlt1 & _). destruct Hp2 as (_ & Hd2 & Hlt2 & _).
  exact (DynEffects.drun_after_unit2 s rp t2 d1 d2 _ _ (DynProofs.drun_w_linkat rp fz Hfz s t2 [] d2 o3 tname d1 o1 name _ Hd2 Hlt2 Hd1 Hlt1 Hn2 Hn1)).
Qed.

(* the kernel backend with every premise discharged but the tree's own: create(path, Directory) and remove_file /
   remove_dir end in mkdirat's / unlinkat's effect on (the kernel's in-root walk of the parent path, the last
   component), with the descriptor table exactly as it was *)
Theorem C14_create_dir_kernel_backend :
  forall s rp fz pfuel gh ps rs, StaticProofs.closed s -> fz <> 0%nat -> rs_kernel rs = true ->
  forall t root path dirp name o m,
  path_split path = Some (Ok (dirp, Some name)) -> has_nul dirp = false -> has_nul name = false ->
  Static.tget t root = Some ROOT ->
  kwalk s dirp false (has (N.lor OPENAT2_RESOLVE_RESOLVE (rs_flags rs)) RESOLVE_NO_SYMLINKS) = WOk o ->
  Dyn.drun rp {| Dyn.ds := s; Dyn.dt := t; Dyn.dseen := [] |} (root_create fz true pfuel gh ps rs root path (IDirectory m)) =
  match Dyn.create_sem s o name KDir with
  | Dyn.EUnit s' => Dyn.DDone {| Dyn.ds := s'; Dyn.dt := Dyn.reloc (Dyn.NPB s) (Dyn.NPB s') t; Dyn.dseen := [] |} (Ok tt)
  | Dyn.EErr e => Dyn.DDone {| Dyn.ds := s; Dyn.dt := t; Dyn.dseen := [] |} (Err (OsError e))
  | Dyn.EOut => Dyn.DDone {| Dyn.ds := s; Dyn.dt := t; Dyn.dseen := [] |} (Err (OsError ENOSYS))
  | Dyn.EOpen _ _ => Dyn.DNoFuel
  end.
Proof.
  intros s rp fz pfuel gh ps rs Hcl Hfz Hk t root path dirp name o m Hsplit Hnul Hnn Hroot Hw.
  rewrite (C14_create_dir_exact_effect s rp fz pfuel true gh ps rs Hfz t root path _ _ name o m
             (DynEffects.parent_ok_kern s rp fz pfuel gh ps Hcl Hfz rs Hk t root path dirp name o Hsplit Hnul Hroot Hw) Hnn).
  apply DynEffects.after_unit_kern.
Qed.

Theorem C14_remove_kernel_backend :
  forall s rp fz pfuel gh ps rs, StaticProofs.closed s -> fz <> 0%nat -> rs_kernel rs = true ->
  forall t root path dirp name o isdir,
  path_split path = Some (Ok (dirp, Some name)) -> has_nul dirp = false -> has_nul name = false ->
  Static.tget t root = Some ROOT ->
  kwalk s dirp false (has (N.lor OPENAT2_RESOLVE_RESOLVE (rs_flags rs)) RESOLVE_NO_SYMLINKS) = WOk o ->
  Dyn.drun rp {| Dyn.ds := s; Dyn.dt := t; Dyn.dseen := [] |} (root_remove_inode fz true pfuel gh ps rs root path isdir) =
  match Dyn.unlink_sem s o name (if isdir then AT_REMOVEDIR else 0) with
  | Dyn.EUnit s' => Dyn.DDone {| Dyn.ds := s'; Dyn.dt := Dyn.reloc (Dyn.NPB s) (Dyn.NPB s') t; Dyn.dseen := [] |} (Ok tt)
  | Dyn.EErr e => Dyn.DDone {| Dyn.ds := s; Dyn.dt := t; Dyn.dseen := [] |} (Err (OsError e))
  | Dyn.EOut => Dyn.DDone {| Dyn.ds := s; Dyn.dt := t; Dyn.dseen := [] |} (Err (OsError ENOSYS))
  | Dyn.EOpen _ _ => Dyn.DNoFuel
  end.
Proof.
  intros s rp fz pfuel gh ps rs Hcl Hfz Hk t root path dirp name o isdir Hsplit Hnul Hnn Hroot Hw.
  rewrite (C14_remove_exact_effect s rp fz pfuel true gh ps rs Hfz t root path _ _ name o isdir
             (DynEffects.parent_ok_kern s rp fz pfuel gh ps Hcl Hfz rs Hk t root path dirp name o Hsplit Hnul Hroot Hw) Hnn).
  apply DynEffects.after_unit_kern.
Qed.

(* the premises on the tree are invariants of every reachable tree: see C12_every_reachable_tree_satisfies_the_premises *)
From PV Require DynInv.
Theorem C14_every_reachable_tree_satisfies_the_premises :
  forall ops, let s := fold_left DynInv.apply_op ops DynInv.root_only in
  DynMkdir.closed2 s /\ DynRemove.ents_ok s /\ DynRemoveExact.uniq s /\ DynMkdirComplete.dirs_ok s /\ DynRemoveConc.tree_ok s.
Proof. exact DynInv.reachable_premises. Qed.

(* executed (non-vacuity): on a concrete tree the real model programs, run on the dynamic kernel by
   both backends, create a/b/new through the escaping link, refuse to rmdir a non-empty directory
   (ENOTEMPTY, tree unchanged), and move a directory with its content *)
Example C14_dynamic_runs :
  let s := FSModel.build [FSModel.MkDir [b "a"]; FSModel.MkDir [b "a"; b "b"]; FSModel.MkFile [b "a"; b "b"; b "f"]; FSModel.MkLnk [b "esc"] (b "../../.."); FSModel.MkLnk [b "a"; b "up"] (b "../a/b")] in
  let gh := {| ph_fd := 4; ph_mnt := Some Static.PROC_MNT; ph_subset := false; ph_openat2 := true |} in
  let st := {| Dyn.ds := s; Dyn.dt := [(5%Z, ROOT); (4%Z, Static.PB s)]; Dyn.dseen := [] |} in
  let emu := {| rs_kernel := false; rs_flags := 0 |} in let kern := {| rs_kernel := true; rs_flags := 0 |} in
  let tree {A} (o : Dyn.doutcome A) := match o with Dyn.DDone st' _ => map (fun e => fst (fst e)) (Dyn.dump (Dyn.ds st')) | _ => [] end in
  let res {A} (o : Dyn.doutcome A) := match o with Dyn.DDone _ a => Some a | _ => None end in
  tree (Dyn.drun (b "/srv/root") st (root_create 1 true 2 gh 1 emu 5 (b "esc/a/up/new") (IDirectory 493)))
    = [[b "a"]; [b "a"; b "b"]; [b "a"; b "b"; b "f"]; [b "a"; b "b"; b "new"]; [b "a"; b "up"]; [b "esc"]] /\
  tree (Dyn.drun (b "/srv/root") st (root_create 1 true 2 gh 1 kern 5 (b "esc/a/up/new") (IDirectory 493)))
    = [[b "a"]; [b "a"; b "b"]; [b "a"; b "b"; b "f"]; [b "a"; b "b"; b "new"]; [b "a"; b "up"]; [b "esc"]] /\
  res (Dyn.drun (b "/srv/root") st (root_remove_inode 1 true 2 gh 1 emu 5 (b "a/b") true)) = Some (Err (OsError ENOTEMPTY)) /\
  tree (Dyn.drun (b "/srv/root") st (root_remove_inode 1 true 2 gh 1 emu 5 (b "a/b") true)) = map (fun e => fst (fst e)) (Dyn.dump s) /\
  tree (Dyn.drun (b "/srv/root") st (root_rename 1 true 2 gh 1 emu 5 (b "a/b") (b "bb") 0))
    = [[b "a"]; [b "a"; b "up"]; [b "esc"]; [b "bb"]; [b "bb"; b "f"]].
Proof. vm_compute. repeat split. Qed.

Print Assumptions C14_every_reachable_tree_satisfies_the_premises.
Print Assumptions C14_parent_and_name.
Print Assumptions C14_split_shape.
Print Assumptions C14_trailing_slash.
Print Assumptions C14_final_not_followed.
Print Assumptions C14_parent_is_in_root_resolution.
Print Assumptions C14_mknod_mode_decode.
Print Assumptions C14_static_parent_object.
Print Assumptions C14_create_dir_acts_on_parent_object.
Print Assumptions C14_remove_acts_on_parent_object.
Print Assumptions C14_create_node_acts_on_parent_object.
Print Assumptions C14_create_node_exact_call.
Print Assumptions C14_create_symlink_acts_on_parent_object.
Print Assumptions C14_create_file_acts_on_parent_object.
Print Assumptions C14_rename_acts_on_parent_objects.
Print Assumptions C14_hardlink_acts_on_parent_objects.
Print Assumptions C14_bridge_static_to_dynamic.
Print Assumptions C14_parent_ok_emulated.
Print Assumptions C14_parent_ok_kernel.
Print Assumptions C14_create_dir_exact_effect.
Print Assumptions C14_create_node_exact_effect.
Print Assumptions C14_create_symlink_exact_effect.
Print Assumptions C14_remove_exact_effect.
Print Assumptions C14_create_file_exact_effect.
Print Assumptions C14_rename_exact_effect.
Print Assumptions C14_hardlink_exact_effect.
Print Assumptions C14_create_file_refuses_o_path.
Print Assumptions C14_create_dir_kernel_backend.
Print Assumptions C14_remove_kernel_backend.
