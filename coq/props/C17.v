(* C17 -- the C boundary validates arguments and respects caller buffers. *)
From PV Require Import CApi FdBalance FdBalProofs RootBal.
Open Scope Z_scope.

Lemma nth_firstn_lt {A} (d : A) : forall (l : list A) n i, (i < n)%nat -> nth i (firstn n l) d = nth i l d.
Proof.
  induction l as [|x t IH]; intros n i Hlt; [destruct n; destruct i; reflexivity|].
  destruct n as [|n]; [lia|]. destruct i as [|i]; [reflexivity|]. cbn. apply IH. lia.
Qed.

Lemma mwrite_out bs : forall m addr a, a < addr \/ addr + Z.of_nat (length bs) <= a -> mwrite m addr bs a = m a.
Proof.
  induction bs as [|x t IH]; intros m addr a H; cbn [mwrite]; [reflexivity|].
  cbn [length] in H. rewrite IH by lia. unfold mupd. destruct (Z.eqb_spec a addr); [lia|reflexivity].
Qed.

Lemma mwrite_in bs : forall m addr a, addr <= a < addr + Z.of_nat (length bs) ->
  mwrite m addr bs a = nth (Z.to_nat (a - addr)) bs 0%N.
Proof.
  induction bs as [|x t IH]; intros m addr a H; cbn [length] in H; [lia|]. cbn [mwrite].
  destruct (Z.eqb_spec a addr) as [ -> |Hne].
  - rewrite mwrite_out by (left; apply Z.lt_succ_diag_r). unfold mupd. rewrite Z.eqb_refl, Z.sub_diag. reflexivity.
  - rewrite IH by lia. replace (Z.to_nat (a - addr)) with (S (Z.to_nat (a - (addr + 1)))) by lia. reflexivity.
Qed.

Lemma c_entry_passes {A} root path (body : Z -> bytes -> prog (result A ekind)) :
  0 <= root -> c_entry root (Some path) body = body root (to_c_string path).
Proof. intro H. unfold c_entry, c_fd. destruct (Z.ltb_spec root 0); [lia|reflexivity]. Qed.

(* pathrs_inroot_readlink / pathrs_proc_readlink: for every link body, buffer
   address, buffer size and memory: the return value is the full length and
   memory changes exactly on [buf, buf + min(len, size)) (nothing for NULL or a
   zero size) *)
Theorem C17_copy_exact :
  forall body buf size m,
    let '(ret, m') := copy_path_into_buffer body buf size m in
    ret = Z.of_nat (length body) /\
    forall a,
      m' a = if negb (Z.eqb buf 0) && negb (Nat.eqb size 0)
                && Z.leb buf a && Z.ltb a (buf + Z.of_nat (Nat.min (length body) size))
             then nth (Z.to_nat (a - buf)) body 0%N
             else m a.
Proof.
  intros body buf size m. unfold copy_path_into_buffer. split; [reflexivity|]. intro a.
  destruct (Z.eqb buf 0); cbn [orb negb andb]; [reflexivity|].
  destruct (Nat.eqb size 0); cbn [negb andb]; [reflexivity|].
  set (k := Nat.min (length body) size).
  assert (Hk : length (firstn k body) = k) by (rewrite firstn_length; apply Nat.min_l, Nat.le_min_l).
  destruct (Z.leb_spec buf a); cbn [andb]; [|apply mwrite_out; left; assumption].
  destruct (Z.ltb_spec a (buf + Z.of_nat k)); [|apply mwrite_out; right; rewrite Hk; assumption].
  rewrite mwrite_in by (rewrite Hk; split; assumption). apply nth_firstn_lt. lia.
Qed.

(* the length always fits a C int: link bodies longer than the readlink buffer
   (T0: READLINK_BUF) are refused by the wrapper with ENAMETOOLONG *)
Theorem C17_len_fits_int : (Z.of_N READLINK_BUF < 2 ^ 31)%Z.
Proof. reflexivity. Qed.

Theorem C17_args_validated :
  (forall A root path (body : Z -> bytes -> prog (result A ekind)),
     (root < 0 \/ path = None) -> c_entry root path body = Ret (Err InvalidArgument)) /\
  (forall A base path (body : pbase -> bytes -> prog (result A ekind)),
     ((base <> PATHRS_PROC_ROOT /\ base <> PATHRS_PROC_SELF /\ base <> PATHRS_PROC_THREAD_SELF) \/ path = None) ->
     c_proc_entry base path body = Ret (Err InvalidArgument)).
Proof.
  split.
  - intros A root path body [H|H]; unfold c_entry, c_fd.
    + destruct (Z.ltb_spec root 0); [reflexivity|lia].
    + subst. destruct (Z.ltb root 0); reflexivity.
  - intros A base path body [(H1 & H2 & H3)|H]; unfold c_proc_entry, c_base.
    + apply N.eqb_neq in H1, H2, H3. rewrite H1, H2, H3. reflexivity.
    + subst. destruct (N.eqb base PATHRS_PROC_ROOT); [reflexivity|].
      destruct (N.eqb base PATHRS_PROC_SELF); [reflexivity|].
      destruct (N.eqb base PATHRS_PROC_THREAD_SELF); reflexivity.
Qed.

(* mknod: the S_IFMT field selects the inode type, the rest is the permission
   mode; an unknown format is an invalid argument, S_IFSOCK is not implemented *)
Theorem C17_mknod_mode_decode :
  forall mode dev,
    match c_mknod_type mode dev with
    | Ok (IFile p) => N.land mode S_IFMT = S_IFREG /\ p = N.ldiff mode S_IFMT
    | Ok (IDirectory p) => N.land mode S_IFMT = S_IFDIR /\ p = N.ldiff mode S_IFMT
    | Ok (IBlockDev p d) => N.land mode S_IFMT = S_IFBLK /\ p = N.ldiff mode S_IFMT /\ d = dev
    | Ok (ICharDev p d) => N.land mode S_IFMT = S_IFCHR /\ p = N.ldiff mode S_IFMT /\ d = dev
    | Ok (IFifo p) => N.land mode S_IFMT = S_IFIFO /\ p = N.ldiff mode S_IFMT
    | Ok _ => False
    | Err NotImplemented => N.land mode S_IFMT = S_IFSOCK
    | Err InvalidArgument =>
        ~ In (N.land mode S_IFMT) [S_IFREG; S_IFDIR; S_IFBLK; S_IFCHR; S_IFIFO; S_IFSOCK]
    | Err _ => False
    end.
Proof.
  intros mode dev.
  unfold c_mknod_type, mknod_decode.
  destruct (N.eqb_spec (N.land mode S_IFMT) S_IFREG) as [E|N1]; [auto|].
  destruct (N.eqb_spec (N.land mode S_IFMT) S_IFDIR) as [E|N2]; [auto|].
  destruct (N.eqb_spec (N.land mode S_IFMT) S_IFBLK) as [E|N3]; [auto|].
  destruct (N.eqb_spec (N.land mode S_IFMT) S_IFCHR) as [E|N4]; [auto|].
  destruct (N.eqb_spec (N.land mode S_IFMT) S_IFIFO) as [E|N5]; [auto|].
  destruct (N.eqb_spec (N.land mode S_IFMT) S_IFSOCK) as [E|N6]; [auto|].
  cbn [In]. intros [H|[H|[H|[H|[H|[H|[]]]]]]]; congruence.
Qed.

(* a borrowed descriptor is not closed: pathrs_inroot_readlink (the one entry point stated
   here; the other Root operations are balanced in the same way, C11) leaves the owned set as it
   found it, for any resolver meeting the lookup contract *)
Theorem C17_borrowed_not_closed :
  forall fz cfg pfuel gh ps rs, res_ok fz cfg pfuel gh ps rs ->
    forall root path o, (0 <= root) ->
      bal (Rsame o) o (c_entry root (Some path) (fun fd p => root_readlink fz cfg pfuel gh ps rs fd p)).
Proof.
  intros fz cfg pfuel gh ps rs Hres root path o Hr. rewrite c_entry_passes by exact Hr.
  apply root_readlink_bal. exact Hres.
Qed.

Check C17_copy_exact :
  forall body buf size m,
    let '(ret, m') := copy_path_into_buffer body buf size m in
    ret = Z.of_nat (length body) /\
    forall a,
      m' a = if negb (Z.eqb buf 0) && negb (Nat.eqb size 0)
                && Z.leb buf a && Z.ltb a (buf + Z.of_nat (Nat.min (length body) size))
             then nth (Z.to_nat (a - buf)) body 0%N
             else m a.

Example C17_copy_example :
  let '(ret, m') := copy_path_into_buffer (b "abcdef") 100 4 (fun _ => 255%N) in
  (ret, map m' [99; 100; 101; 102; 103; 104; 105]) = (6, [255; 97; 98; 99; 100; 255; 255]%N).
Proof. reflexivity. Qed.

Print Assumptions C17_copy_exact.
Print Assumptions C17_len_fits_int.
Print Assumptions C17_args_validated.
Print Assumptions C17_mknod_mode_decode.
Print Assumptions C17_borrowed_not_closed.
