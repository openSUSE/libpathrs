(* C02 -- lookups never escape the root under any concurrent attacker schedule.
   The statements below quantify over every kernel answer at every call, i.e.
   over every attacker acting at any system-call boundary.  They establish WHERE
   results come from: the emulated walk hands out a completed lookup only through
   final_check, final_check completes only when check_current passed, and a ".."
   step is discarded unless check_current passed right after it.  That a passing
   check_current (the kernel's own /proc/thread-self/fd/N rendering of the
   descriptor equals root path + expected path) implies the object was inside the
   root at that moment is the kernel's d_path contract (DESIGN.md C02), exercised by
   the schedule-exhaustive runs of tools/props/C02.py; what the comparison itself
   establishes is proved here for all byte strings (C02_check_passes_means) and for
   all answers (C02_check_sound). *)
From PV Require Import Discipline ProgTac FaultProofs EscapeProofs FSModel FSProofs.
From PV Require Import Hoare CheckProofs DentryProofs.

Theorem C02_complete_only_via_fin :
  forall fz ps chk fin budget nosym nofollow,
    (forall st, okp TC TS not_complete (fin st)) ->
    forall st cs, okp TC TS not_complete (walk_gen fz ps chk fin budget nosym nofollow st cs).
Proof.
  intros fz ps chk fin budget nosym nofollow Hfin.
  apply (walk_gen_budget_ind fz ps chk fin nosym nofollow (fun w => forall st cs, okp TC TS not_complete (w st cs))).
  intros follow Hgo. apply walk_body_incomplete; assumption.
Qed.

Theorem C02_final_check_needs_passing_check :
  forall chk st, chk_fails chk -> okp TC TS not_complete (final_check_gen chk st).
Proof.
  intros chk st Hc. unfold final_check_gen. eapply okp_bind; [apply Hc|].
  intros [u|e] Hr; [destruct Hr|apply bail_incomplete].
Qed.

Theorem C02_dotdot_checked :
  forall fz ps chk fin nosym nofollow follow inner remaining rest st,
    chk_fails chk ->
    okp TC TS not_complete (walk_open fz ps chk fin nosym nofollow follow inner remaining rest st [DOT; DOT]).
Proof.
  intros fz ps chk fin nosym nofollow follow inner remaining rest st Hc. unfold walk_open.
  change (has_slash [DOT; DOT]) with false. cbn iota.
  apply rets_bind. intros [next|e]; [|apply ret_partial_incomplete].
  change (is_dotdot [DOT; DOT]) with true. cbn iota.
  eapply okp_bind; [apply Hc|]. intros [u|e] Hr; [destruct Hr|apply bail_incomplete].
Qed.

(* the real resolver is that walk with chk = check_current and fin = final_check *)
Theorem C02_instantiation :
  forall fz cfg pfuel gh ps, walk fz cfg pfuel gh ps = walk_gen fz ps (check_current fz cfg pfuel gh) (final_check fz cfg pfuel gh)
  /\ final_check fz cfg pfuel gh = final_check_gen (check_current fz cfg pfuel gh).
Proof. intros. split; reflexivity. Qed.

(* openat2 backend: at most OPENAT2_RETRIES attempts; EAGAIN (the kernel noticing a racing
   rename/mount) never surfaces as a result, it ends as SafetyViolation *)
Theorem C02_kern_bounded_retry :
  forall fz cfg root path rf nf,
    calls_le is_openat2 (N.to_nat OPENAT2_RETRIES) (k_resolve_loop fz (N.to_nat OPENAT2_RETRIES) root path rf nf) /\
    okp TC TS not_eagain (k_resolve fz cfg root path rf (negb (N.eqb nf 0))).
Proof. intros. split; [apply k_resolve_loop_bounded|apply k_resolve_no_eagain]. Qed.

(* with no attacker at all, the walk's result lies in the root's tree (C01) *)
Theorem C02_static_in_root :
  forall s df, wf s df -> forall p nf nosym o, ewalk s p nf nosym = WOk o -> reach s o.
Proof. intros s df H. apply (emu_in_root s df H). Qed.

(* what check_current's comparison establishes, for ALL byte strings: the kernel's
   rendering of the current descriptor consists of the root path's components
   followed by exactly the expected components (std::path normalisation) *)
Theorem C02_check_passes_means :
  forall root_path cur_path exp,
    path_eq cur_path (OpathM.push_all root_path ([DOT] :: exp)) = true ->
    Forall name_ok exp ->
    nf cur_path = nf root_path ++ exp.
Proof. exact check_passes_means. Qed.

(* for all answers: the check passes only if the three renderings it read --
   root, current, root again -- satisfy both comparisons.  [g0] (CheckProofs) reads a rendering
   with one readlink call; the library's reader as_unsafe_path goes through the procfs handle,
   and check_current is check_current_gen over it (C02_check_current_is_that_check below) *)
Theorem C02_check_sound :
  forall cur root exp,
    spec (fun _ _ => True)
         (fun res h => res = Ok tt ->
            exists c1 c2 c3 p1 p2 p3,
              h = [(c3, RBytes p3); (c2, RBytes p2); (c1, RBytes p1)] /\
              path_eq p2 (OpathM.push_all p1 ([DOT] :: exp)) = true /\ path_eq p1 p3 = true)
         [] (check_current_gen g0 cur root exp).
Proof.
  intros cur root exp. unfold check_current_gen.
  eapply spec_bindR; [apply g0_spec| |discriminate]. intros p1 h1 H1. destruct (H1 p1 eq_refl) as [c1 ->].
  eapply spec_bindR; [apply g0_spec| |discriminate]. intros p2 h2 H2. destruct (H2 p2 eq_refl) as [c2 ->].
  destruct (path_eq p2 (push_all p1 ([DOT] :: exp))) eqn:E1; cbn [negb]; [|constructor; discriminate].
  eapply spec_bindR; [apply g0_spec| |discriminate]. intros p3 h3 H3. destruct (H3 p3 eq_refl) as [c3 ->].
  destruct (path_eq p1 p3) eqn:E3; cbn [negb]; constructor; [|discriminate].
  intros _. exists c1, c2, c3, p1, p2, p3. split; [reflexivity|]. split; assumption.
Qed.

Theorem C02_check_current_is_that_check :
  forall fz o2 pfuel gh cur root exp,
    OpathM.check_current fz o2 pfuel gh cur root exp = check_current_gen (ProcfsM.as_unsafe_path fz o2 pfuel gh) cur root exp.
Proof. reflexivity. Qed.

(* ... and why that comparison means "inside": in the kernel's dentry forest at the instant
   of the second read (sibling names unique; [up] = d_path; assumption A1: the rendering of
   the root read first is still the root's), a `current` whose rendering passes the
   comparison IS the object reached from the root by walking down the expected components,
   so the root is its ancestor |exp| levels up.  The forest is a premise, not a model of
   /repo: this is the kernel contract the schedule runs of tools/props/C02.py exercise. *)
Theorem C02_passing_check_means_inside :
  forall f root cur root_path cur_path exp,
    fwf f -> renders f root root_path -> renders f cur cur_path ->
    path_eq cur_path (OpathM.push_all root_path ([DOT] :: exp)) = true -> Forall name_ok exp ->
    desc f root exp cur /\ ancestor f (length exp) cur = Some root.
Proof.
  intros f root cur root_path cur_path exp Hwf [g1 Hr] [g2 Hc] Heq Hexp.
  rewrite (check_passes_means _ _ _ Heq Hexp) in Hc.
  pose proof (path_extends_means_descendant f Hwf exp _ g1 g2 root cur Hr Hc) as Hd.
  split; [exact Hd|apply desc_ancestor, Hd].
Qed.

(* non-vacuity: /srv/root with a/b below it; object 4 (b) rendered sloppily still passes and is
   found two levels below object 2 (the root) *)
Definition C02_forest : forest :=
  {| parent := fun o => match o with
                        | 1%nat => Some (0%nat, b "srv") | 2%nat => Some (1%nat, b "root")
                        | 3%nat => Some (2%nat, b "a") | 4%nat => Some (3%nat, b "b")
                        | 5%nat => Some (1%nat, b "b")
                        | _ => None end |}.
Example C02_forest_example :
  renders C02_forest 2 (b "/srv/root") /\ renders C02_forest 4 (b "/srv/root//a/./b/") /\
  ancestor C02_forest 2 4 = Some 2%nat /\
  (* object 5 = /srv/b, a directory moved out of the root: its rendering does not pass *)
  renders C02_forest 5 (b "/srv/b") /\
  path_eq (b "/srv/b") (OpathM.push_all (b "/srv/root") ([DOT] :: [b "a"; b "b"])) = false.
Proof.
  repeat split; try (exists 5%nat; vm_compute; reflexivity); vm_compute; reflexivity.
Qed.

Example C02_check_example :
  path_eq (b "/srv/root//a/./b/") (OpathM.push_all (b "/srv/root") ([DOT] :: [b "a"; b "b"])) = true /\
  nf (b "/srv/root//a/./b/") = [b "srv"; b "root"; b "a"; b "b"] /\
  path_eq (b "/srv/a/b") (OpathM.push_all (b "/srv/root") ([DOT] :: [b "a"; b "b"])) = false /\
  path_eq (b "/srv/root/a/b (deleted)") (OpathM.push_all (b "/srv/root") ([DOT] :: [b "a"; b "b"])) = false.
Proof. vm_compute. repeat split. Qed.

Check C02_complete_only_via_fin :
  forall fz ps chk fin budget nosym nofollow,
    (forall st, okp TC TS not_complete (fin st)) ->
    forall st cs, okp TC TS not_complete (walk_gen fz ps chk fin budget nosym nofollow st cs).
Check C02_dotdot_checked :
  forall fz ps chk fin nosym nofollow follow inner remaining rest st,
    chk_fails chk ->
    okp TC TS not_complete (walk_open fz ps chk fin nosym nofollow follow inner remaining rest st [DOT; DOT]).

Print Assumptions C02_complete_only_via_fin.
Print Assumptions C02_final_check_needs_passing_check.
Print Assumptions C02_dotdot_checked.
Print Assumptions C02_instantiation.
Print Assumptions C02_kern_bounded_retry.
Print Assumptions C02_static_in_root.
Print Assumptions C02_check_passes_means.
Print Assumptions C02_check_sound.
Print Assumptions C02_check_current_is_that_check.
Print Assumptions C02_passing_check_means_inside.
