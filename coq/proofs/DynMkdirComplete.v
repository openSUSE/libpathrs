(* DynMkdirComplete.v -- C12, completeness: when every component that exists along the chain is a directory and the
   names are plain and not too long, the creation loop goes through -- mkdir_all has no reason to fail there, and
   does not; one round of the loop with the environment acting in between ([mk_step_ok]) is shared with DynMkdirConc. *)
From PV Require Import Dyn DynProofs DynMkdir DynMkdirAll DynResolve.

Local Notation WOk := FSModel.WOk.

Definition dirs_ok (s : fs) : Prop := forall e, In e (ents s) -> (ent_dir e < length (kinds s))%nat.

Lemma dirs_ok_add_obj s d n k : dirs_ok s -> (d < length (kinds s))%nat -> dirs_ok (FSModel.add_obj s d n k).
Proof.
  intros H Hd e He. unfold FSModel.add_obj in *. cbn [FSModel.ents FSModel.kinds] in *. rewrite app_length. cbn [length].
  apply in_app_or in He. destruct He as [He|[<-|[]]]; [specialize (H e He); lia|cbn [ent_dir fst]; lia].
Qed.

Lemma lookup_fresh_dir s o n : dirs_ok s -> (length (kinds s) <= o)%nat -> lookup s o n = None.
Proof.
  intros H Ho. destruct (lookup s o n) as [c|] eqn:E; [|reflexivity]. exfalso.
  destruct (FSProofs.find_ent_in _ _ _ _ E) as (n' & Hin). exact (proj1 (Nat.le_ngt _ _) Ho (H _ Hin)).
Qed.

(* every component that exists is a directory *)
Fixpoint chain_ok (s : fs) (o : nat) (ps : list bytes) : Prop :=
  match ps with
  | [] => True
  | p :: rest => too_long p = false /\
                 match lookup s o p with
                 | None => Forall (fun q => too_long q = false) rest
                 | Some c => is_dir s c = true /\ chain_ok s c rest
                 end
  end.

Lemma extends_dirs_ok s s' : extends s s' -> dirs_ok s -> dirs_ok s'.
Proof. induction 1 as [s|s s' d n _ IH Hd Hl]; intro H; [exact H|]. apply dirs_ok_add_obj; [exact (IH H)|exact (is_dir_lt _ _ Hd)]. Qed.

(* what is found under a name that did not exist in [s] is a new directory *)
Lemma lookup_new s s' d q c : extends s s' -> lookup s d q = None -> lookup s' d q = Some c ->
  (length (kinds s) <= c)%nat /\ is_dir s' c = true.
Proof.
  intros He Hn Hl. destruct (extends_frame _ _ He) as (_ & _ & _ & new & Hents & Hnew).
  unfold FSModel.lookup in Hn, Hl. rewrite Hents, find_ent_app, Hn in Hl.
  destruct (FSProofs.find_ent_in _ _ _ _ Hl) as (n' & Hin). rewrite Forall_forall in Hnew.
  destruct (Hnew _ Hin) as [H1 H2]. cbn [ent_obj snd] in H1, H2. split; [exact H1|]. unfold FSModel.is_dir. rewrite H2. reflexivity.
Qed.

(* below a directory that did not exist in [s] there are only new directories *)
Lemma chain_ok_new s s' : extends s s' -> dirs_ok s -> forall ps d, (length (kinds s) <= d)%nat ->
  Forall (fun q => too_long q = false) ps -> chain_ok s' d ps.
Proof.
  intros He Hdo. induction ps as [|p rest IH]; intros d Hd Hl; cbn [chain_ok]; [exact I|].
  inversion Hl as [|? ? Hp Hrest]; subst. split; [exact Hp|].
  destruct (lookup s' d p) as [c|] eqn:El; [|exact Hrest].
  destruct (lookup_new s s' d p c He (lookup_fresh_dir s d p Hdo Hd) El) as [Hc Hcd]. split; [exact Hcd|]. apply IH; assumption.
Qed.

Lemma chain_ok_ext s s' : extends s s' -> dirs_ok s -> forall ps o, chain_ok s o ps -> chain_ok s' o ps.
Proof.
  intros He Hdo. destruct (extends_frame _ _ He) as (_ & Hlk & _ & _).
  induction ps as [|p rest IH]; intros o H; cbn [chain_ok] in *; [exact I|].
  destruct H as [Hp H]. split; [exact Hp|].
  destruct (lookup s o p) as [c|] eqn:El.
  - rewrite (Hlk _ _ _ El). destruct H as [Hcd Hrest]. split; [exact (is_dir_extends _ _ _ He Hcd)|].
    exact (IH c Hrest).
  - destruct (lookup s' o p) as [c|] eqn:El'; [|exact H].
    (* somebody else created it meanwhile: it is one of the new directories *)
    destruct (lookup_new s s' o p c He El El') as [Hge Hcd]. split; [exact Hcd|]. apply (chain_ok_new s s' He Hdo); assumption.
Qed.

(* mkdirat cannot fail: the name is plain and short, the directory is one *)
Lemma mk_dir_ok s o p : is_dir s o = true -> Dyn.plain p = true -> too_long p = false -> exists s1, mk_dir s o p = inl s1.
Proof. intros Hd Hp Hl. rewrite (mk_dir_plain s o p Hp), Hd, Hl. cbn [negb]. destruct (lookup s o p); eexists; reflexivity. Qed.

(* the open cannot fail: the name is there and is a directory, whoever created it *)
Lemma mk_step_ok s o p rest s1 s2 : dirs_ok s -> is_dir s o = true -> Dyn.plain p = true -> chain_ok s o (p :: rest) ->
  mk_dir s o p = inl s1 -> extends s1 s2 ->
  exists c, mk_open s2 o p = inl c /\ lookup s2 o p = Some c /\ is_dir s2 c = true /\ chain_ok s2 c rest.
Proof.
  intros Hdo Hdir Hp Hch Hmd He.
  pose proof (extends_trans _ _ _ (mk_dir_ext _ _ _ _ Hmd) He) as He2.
  pose proof (chain_ok_ext _ _ He2 Hdo _ o Hch) as Hch2. cbn [chain_ok] in Hch2. destruct Hch2 as [_ Hch2].
  assert (Hl1 : exists c, lookup s1 o p = Some c).
  { rewrite (mk_dir_plain s o p Hp), Hdir in Hmd. cbn [negb] in Hmd. destruct (too_long p); [discriminate|].
    destruct (lookup s o p) as [c|] eqn:El; inversion Hmd; subst; [exists c; exact El|].
    exists (length (kinds s)). exact (lookup_add_obj_new s o p _ El). }
  destruct Hl1 as (c & Hl1). destruct (extends_frame _ _ He) as (_ & Hlk & _). pose proof (Hlk _ _ _ Hl1) as Hl2.
  rewrite Hl2 in Hch2. destruct Hch2 as [Hcd2 Hrest2]. exists c.
  rewrite (mk_open_eq s2 o p (plain_no_dots _ Hp)), (is_dir_extends _ _ _ He2 Hdir), Hl2, Hcd2. repeat split; assumption.
Qed.

Theorem mk_spec_complete : forall ps s o, closed2 s -> dirs_ok s -> (o < length (kinds s))%nat -> is_dir s o = true ->
  Forall (fun p => Dyn.plain p = true) ps -> chain_ok s o ps -> exists c, snd (mk_spec s o ps) = inl c.
Proof.
  induction ps as [|p rest IH]; intros s o Hc Hdo Ho Hdir Hpl Hch; [eexists; reflexivity|].
  inversion Hpl as [|? ? Hp Hprest]; subst. cbn [mk_spec].
  destruct (mk_dir_ok s o p Hdir Hp (proj1 Hch)) as (s1 & Em). rewrite Em.
  destruct (mk_step_ok s o p rest s1 s1 Hdo Hdir Hp Hch Em (ext_refl s1)) as (c & Eo & _ & Hcd & Hch1). rewrite Eo.
  pose proof (mk_dir_ext _ _ _ _ Em) as He.
  exact (IH s1 c (extends_closed2 _ _ He Hc) (extends_dirs_ok _ _ He Hdo) (is_dir_lt _ _ Hcd) Hcd Hprest Hch1).
Qed.

Theorem mkdir_all_kernel_succeeds s rp fz pfuel gh ps rs t root path mode o rm exp :
  fz <> 0%nat -> closed2 s -> dirs_ok s -> is_dir s ROOT = true ->
  ph_mnt gh = Some PROC_MNT -> ph_openat2 gh = true -> rs_kernel rs = true ->
  tget t root = Some ROOT -> tget t (ph_fd gh) = Some (PB s) -> has_nul path = false -> path <> [] ->
  N.ldiff mode MKDIR_ALL_MASK1 = 0 -> N.ldiff mode MKDIR_ALL_MASK2 = 0 ->
  let nosym := has (N.lor OPENAT2_RESOLVE_RESOLVE (rs_flags rs)) RESOLVE_NO_SYMLINKS in
  kpartial s path nosym = KPartial o rm ENOENT ->
  is_dir s o = true -> find_path s o = Some exp -> N.leb READLINK_BUF (N.of_nat (length (render rp exp))) = false ->
  existsb is_dotdot (parts_of (Some rm)) = false ->
  (* every remaining component that exists is a directory, and no name is longer than NAME_MAX *)
  chain_ok s o (parts_of (Some rm)) ->
  let s' := fst (mk_spec s o (parts_of (Some rm))) in
  exists t' fd c,
    Dyn.drun rp {| ds := s; dt := t; dseen := [] |} (root_mkdir_all fz true (S pfuel) gh ps rs root path mode) =
      DDone {| ds := s'; dt := t'; dseen := [] |} (Ok fd) /\ tget t' fd = Some c /\
    is_dir s' c = true /\ FSModel.kwalk s' path false nosym = WOk c /\ extends s s'.
Proof.
  intros Hfz Hc Hdo Hroot Hmnt Ho2 Hk Htr Htp Hnul Hne Hm1 Hm2 nosym Hkp Hdir Hpath Hshort Hdd Hch s'.
  assert (Holt : (o < length (kinds s))%nat) by (apply is_dir_lt; exact Hdir).
  destruct (kpartial_facts s (proj1 Hc) nosym path o (Some rm) Hnul (or_intror (ex_intro _ rm (conj Hkp eq_refl)))) as [_ Hnulr].
  pose proof (parts_plain (Some rm) Hnulr Hdd) as Hplain.
  destruct (mk_spec_complete _ s o Hc Hdo Holt Hdir Hplain Hch) as (c & Hsucc).
  destruct (mkdir_all_kernel_post s rp fz pfuel gh ps rs t root path mode o rm exp Hfz Hc Hroot Hmnt Ho2 Hk Htr Htp Hnul Hne Hm1 Hm2 Hkp Hdir Hpath Hshort Hdd)
    as (Hext & t' & Hpost).
  rewrite Hsucc in Hpost. destruct Hpost as (fd & Hrun & Hget & Hd & Hw).
  exists t', fd, c. repeat split; assumption.
Qed.
