(* DisciplineProofs.v -- C05: every call of every model program satisfies the
   per-call discipline, whatever the kernel answers.  The wrappers (syscalls.rs) are proved for
   the discipline; the procfs programs are walked once, for any judgement on single calls that
   the wrappers meet ([judge]), of which the discipline ([Jd]) is one. *)
From PV Require Import Discipline ProgTac BitsProofs PathProofs.

Lemma real_fd_not_cwd fd : real_fd fd = true -> Z.eqb fd AT_FDCWD = false.
Proof. unfold real_fd, AT_FDCWD. intro H. apply Z.leb_le in H. apply Z.eqb_neq. lia. Qed.

Lemma real_fd_valid fd : real_fd fd = true -> valid_fd fd = true.
Proof. unfold valid_fd, real_fd. intro H. rewrite H. apply orb_true_r. Qed.

Lemma single_nil : single [] = true.
Proof. reflexivity. Qed.

Lemma single_dot : single [DOT] = true.
Proof. reflexivity. Qed.

Lemma has_slash_app x y : has_slash (x ++ y) = has_slash x || has_slash y.
Proof. apply has_byte_app. Qed.

Lemma single_of_no_slash n : has_slash n = false -> single n = true.
Proof. intro H. unfold single. rewrite H. reflexivity. Qed.

Lemma dec_fuel_no_slash fuel n acc :
  has_slash acc = false -> has_slash (dec_fuel fuel n acc) = false.
Proof.
  revert n acc. induction fuel as [|f IH]; intros n acc Hacc; cbn [dec_fuel]; [exact Hacc|].
  assert (Hd : has_slash ((48 + n mod 10) :: acc) = false).
  { rewrite has_slash_cons, Hacc, orb_false_r. apply N.eqb_neq. unfold SLASH.
    generalize (n mod 10). intro x. lia. }
  destruct (N.eqb (n / 10) 0); [exact Hd|]. apply IH. exact Hd.
Qed.

Lemma dec_no_slash n : has_slash (dec n) = false.
Proof. unfold dec. apply dec_fuel_no_slash. reflexivity. Qed.

Lemma strip_prefix_app pre s : strip_prefix pre (pre ++ s) = Some s.
Proof. induction pre as [|a pre IH]; cbn; [reflexivity|]. rewrite N.eqb_refl. exact IH. Qed.

Lemma task_path_ok n : is_task_path (b "self/task/" ++ dec n) = true.
Proof. unfold is_task_path. rewrite strip_prefix_app, dec_no_slash. reflexivity. Qed.

Lemma host_proc_ok s : is_host_proc (b "/proc/" ++ s) = true.
Proof. unfold is_host_proc. rewrite strip_prefix_app. reflexivity. Qed.

(* ---- the discipline as a judgement ([okd], [okf]); FrozenFd and the wrappers (syscalls.rs) ---- *)

Definition QT {A} : A -> Prop := fun _ => True.
Definition Qfd {E} : result Z E -> Prop := okR (fun n => real_fd n = true).
(* Panic sites of /repo that this judgement admits (C10): 1 = no thread-self candidate works,
   5 = Rc::try_unwrap (admitted, not excluded: that the count is 1 there is shown in OpathBal,
   under the premises of the balance judgement), and -- depending on two flags that T0 reads off
   the source -- 2 = try_from_fd's fstat expect(), 6 = the unreachable!() of
   openat2::resolve_partial. *)
Definition allowed_panic (s : N) : Prop :=
  s = PANIC_THREAD_SELF \/ s = PANIC_RC_UNWRAP \/
  (TRY_FROM_FD_FSTAT_PANICS = true /\ s = PANIC_FSTAT_PROC) \/
  (PARTIAL_UNREACHABLE_PANICS = true /\ s = PANIC_PARTIAL_UNREACHABLE).
Notation okd := (okp Pdn allowed_panic).
Notation okf := (okp Pd allowed_panic).

Lemma as_fd_real r n : as_fd r = Ok n -> real_fd n = true.
Proof.
  destruct r as [e|n0| | | | | | |]; cbn; try discriminate.
  destruct (Z.leb 0 n0) eqn:E; [|discriminate].
  intro H; injection H as <-. exact E.
Qed.

Lemma okd_T {A} (Q : A -> Prop) (p : prog A) : okd Q p -> okd QT p.
Proof. intro H. eapply okp_weaken; [exact H|]. intros; exact I. Qed.

Lemma okR_T {A E} (r : result A E) : okR QT r.
Proof. destruct r; exact I. Qed.

Lemma okp_weakT {A E} P S (Qa : A -> Prop) (p : prog (result A E)) : okp P S (okR Qa) p -> okp P S (okR QT) p.
Proof. intro H. eapply okp_weaken; [exact H|]. intros; apply okR_T. Qed.

(* okf: like okd, but an open may lack O_NOFOLLOW *)
Lemma Pdn_Pd c : Pdn c -> Pd c.
Proof. intros [H _]; exact H. Qed.

Lemma okf_of_okd {A} (Q : A -> Prop) (p : prog A) : okd Q p -> okf Q p.
Proof. apply okp_weaken_P, Pdn_Pd. Qed.

Lemma frozen_call_ok c : frozen_call c -> Pdn c.
Proof.
  intros [->|[[n ->]|[n ->]]]; (split; [|reflexivity]); cbn [disc_b]; [reflexivity| |apply host_proc_ok].
  change (Z.eqb AT_FDCWD AT_FDCWD) with true. cbn iota. rewrite host_proc_ok. reflexivity.
Qed.

Lemma frozen_ok fz fd : okd QT (frozen fz fd).
Proof.
  eapply okp_mono; [exact frozen_call_ok| |intros; exact I|apply frozen_okp].
  intros s <-. left; reflexivity.
Qed.

Lemma fail1_ok {A} (Qa : A -> Prop) fz fd e : okd (okR Qa) (@fail1 fz A fd e).
Proof. eapply okp_then; [apply frozen_ok|apply okp_err]. Qed.
Lemma fail2_ok {A} (Qa : A -> Prop) fz fd1 fd2 e : okd (okR Qa) (@fail2 fz A fd1 fd2 e).
Proof. eapply okp_then; [apply frozen_ok|]. eapply okp_then; [apply frozen_ok|apply okp_err]. Qed.

Lemma rustix_path_ok {A} (Qa : A -> Prop) fz fd path (k : prog (result A N)) :
  okd (okR Qa) k -> okd (okR Qa) (rustix_path fz fd path k).
Proof. apply okp_if, fail1_ok. Qed.

(* what every wrapper ends in: the one system call, its answer decoded, a FrozenFd on failure *)
Lemma wcall_ok {A} (P : call -> Prop) (Qa : A -> Prop) fz fd c (dec : resp -> result A N) :
  (forall c, Pdn c -> P c) -> P c -> (forall r a, dec r = Ok a -> Qa a) ->
  okp P allowed_panic (okR Qa)
      (Call c (fun r => match dec r with Ok a => Ret (Ok a) | Err e => fail1 fz fd e end)).
Proof.
  intros HP Hc Hd. constructor; [exact Hc|]. intro r.
  destruct (dec r) eqn:E; [constructor; exact (Hd _ _ E)|].
  eapply okp_weaken_P; [exact HP|apply fail1_ok].
Qed.

Lemma wcall_okd {A} fz fd c (dec : resp -> result A N) :
  Pdn c -> okd (okR QT) (Call c (fun r => match dec r with Ok a => Ret (Ok a) | Err e => fail1 fz fd e end)).
Proof. intro Hc. apply wcall_ok; [auto|exact Hc|intros; exact I]. Qed.

Lemma wcall_fd_ok fz fd c :
  Pdn c -> okd Qfd (Call c (fun r => match as_fd r with Ok n => Ret (Ok n) | Err e => fail1 fz fd e end)).
Proof. intro Hc. apply wcall_ok; [auto|exact Hc|exact as_fd_real]. Qed.

(* fsopen and F_DUPFD_CLOEXEC: the answer is returned as it is, no FrozenFd on failure *)
Lemma call_fd_ok c : Pdn c -> okd Qfd (Call c (fun r => Ret (as_fd r))).
Proof.
  intro Hc. constructor; [exact Hc|]. intro r. constructor.
  destruct (as_fd r) eqn:E0; [exact (as_fd_real _ _ E0)|exact I].
Qed.

Ltac pdn_solve :=
  split; [cbn [disc_b];
          repeat match goal with
                 | H : real_fd ?fd = true |- context [Z.eqb ?fd AT_FDCWD] => rewrite (real_fd_not_cwd _ H)
                 | H : ?x = true |- context [?x] => rewrite H
                 end; try reflexivity
         | reflexivity].

Lemma forced_has fl c : has OPENAT_FORCED c = true -> has (N.lor (N.lor fl OPENAT_FORCED) O_LARGEFILE) c = true.
Proof. intro H. apply has_lor_l, has_lor_r, H. Qed.

Lemma openat_disc fd n fl m :
  real_fd fd = true -> single n = true ->
  disc_b (Openat fd n (N.lor (N.lor fl OPENAT_FORCED) O_LARGEFILE) m) = true.
Proof.
  intros Hfd Hn. cbn [disc_b].
  rewrite (real_fd_not_cwd _ Hfd), Hfd, Hn, !forced_has by reflexivity. cbn [andb]. rewrite orb_true_r. reflexivity.
Qed.

(* openat_follow: disciplined except for O_NOFOLLOW *)
Lemma w_openat_follow_ok fz fd n fl m :
  real_fd fd = true -> single n = true ->
  okf Qfd (w_openat_follow fz fd n fl m).
Proof.
  intros Hfd Hn. apply okp_if; [apply okp_err|].
  apply okp_if; [apply okf_of_okd, fail1_ok|].
  apply wcall_ok; [exact Pdn_Pd|apply openat_disc; assumption|exact as_fd_real].
Qed.

Lemma w_openat_ok fz fd n fl m :
  real_fd fd = true -> single n = true -> okd Qfd (w_openat fz fd n fl m).
Proof.
  intros Hfd Hn. apply okp_if; [apply okp_err|].
  apply rustix_path_ok, wcall_fd_ok. split; [apply openat_disc; assumption|].
  cbn [nofollow_b]. apply orb_true_iff. left. apply has_lor_l, has_lor_l, has_lor_r. reflexivity.
Qed.

(* new_unsafe_open: openat(AT_FDCWD, "/proc", O_PATH|O_DIRECTORY) *)
Lemma w_openat_proc_ok fz m : okd Qfd (w_openat fz AT_FDCWD (b "/proc") UNSAFE_OPEN_FLAGS m).
Proof. apply rustix_path_ok, wcall_fd_ok. split; reflexivity. Qed.

Lemma simple1_ok {A} fz fd path c (dec : resp -> result A N) : Pdn c -> okd (okR QT) (simple1 fz fd path c dec).
Proof. intro Hc. apply okp_if; [apply okp_err|]. apply rustix_path_ok, wcall_okd, Hc. Qed.

Lemma w_readlinkat_ok fz fd : real_fd fd = true -> okd (okR QT) (w_readlinkat fz fd []).
Proof.
  intro Hfd. apply okp_if; [apply okp_err|].
  apply rustix_path_ok. constructor; [pdn_solve|].
  intro r. destruct (as_bytes r); [|apply fail1_ok].
  destruct (N.leb _ _); [apply fail1_ok|constructor; exact I].
Qed.

Lemma w_mkdirat_ok fz fd n m : real_fd fd = true -> single n = true -> okd (okR QT) (w_mkdirat fz fd n m).
Proof. intros Hfd Hn. apply simple1_ok. pdn_solve. Qed.
Lemma w_mknodat_ok fz fd n m d : real_fd fd = true -> single n = true -> okd (okR QT) (w_mknodat fz fd n m d).
Proof. intros Hfd Hn. apply simple1_ok. pdn_solve. Qed.
Lemma w_unlinkat_ok fz fd n a : real_fd fd = true -> single n = true -> okd (okR QT) (w_unlinkat fz fd n a).
Proof. intros Hfd Hn. apply simple1_ok. pdn_solve. Qed.

Lemma w_fstatfs_ok fz fd : real_fd fd = true -> okd (okR QT) (w_fstatfs fz fd).
Proof.
  intro Hfd. apply okp_if; [apply okp_err|]. apply wcall_okd. pdn_solve.
Qed.

Lemma w_fstatat_ok fz fd n :
  real_fd fd = true -> (stat_name n || is_task_path n = true) -> okd (okR QT) (w_fstatat fz fd n).
Proof. intros Hfd Hn. apply simple1_ok. pdn_solve. Qed.

Lemma w_statx_ok fz fd n mask :
  real_fd fd = true -> stat_name n = true -> okd (okR QT) (w_statx fz fd n mask).
Proof. intros Hfd Hn. apply simple1_ok. pdn_solve. Qed.

Lemma w_symlinkat_ok fz t fd n : real_fd fd = true -> single n = true -> okd (okR QT) (w_symlinkat fz t fd n).
Proof.
  intros Hfd Hn. apply okp_if; [apply okp_err|].
  apply okp_if; [apply fail1_ok|]. apply wcall_okd. pdn_solve.
Qed.

Lemma two_fd_ok fz ofd on nfd nn c :
  Pdn c -> okd (okR QT) (two_fd fz ofd on nfd nn c).
Proof.
  intro Hc. apply okp_if; [apply okp_err|]. apply okp_if; [apply okp_err|]. apply okp_if; [apply fail2_ok|].
  constructor; [exact Hc|]. intro r. destruct (as_unit r); [constructor; exact I|apply fail2_ok].
Qed.

Lemma w_linkat_ok fz ofd on nfd nn :
  real_fd ofd = true -> single on = true -> real_fd nfd = true -> single nn = true ->
  okd (okR QT) (w_linkat fz ofd on nfd nn LINKAT_FLAGS).
Proof. intros. apply two_fd_ok. pdn_solve. Qed.

Lemma w_renameat2_ok fz ofd on nfd nn fl :
  real_fd ofd = true -> single on = true -> real_fd nfd = true -> single nn = true ->
  okd (okR QT) (w_renameat2 fz ofd on nfd nn fl).
Proof.
  intros. unfold w_renameat2, w_renameat. destruct (N.eqb fl 0); apply two_fd_ok; pdn_solve.
Qed.

Lemma openat2_flags_keeps fl c : has fl c = true -> has (openat2_flags fl) c = true.
Proof. intro H. unfold openat2_flags. destruct (has _ O_PATH); [|apply has_lor_l]; apply has_lor_l; exact H. Qed.

Lemma openat2_flags_cloexec fl : has (openat2_flags fl) O_CLOEXEC = true.
Proof. unfold openat2_flags. destruct (has _ O_PATH); [|apply has_lor_l]; apply has_lor_r; reflexivity. Qed.

(* never a controlling terminal: O_NOCTTY, or the open is an O_PATH one *)
Lemma openat2_flags_noctty fl : has (openat2_flags fl) O_NOCTTY || has (openat2_flags fl) O_PATH = true.
Proof.
  unfold openat2_flags. destruct (has (N.lor fl OPENAT2_FORCED) O_PATH) eqn:E.
  - rewrite E. apply orb_true_r.
  - apply orb_true_iff. left. apply has_lor_r. reflexivity.
Qed.

Lemma w_openat2_ok fz fd p fl m rs :
  real_fd fd = true -> has rs RESOLVE_NO_MAGICLINKS = true ->
  (has rs RESOLVE_IN_ROOT || (has rs RESOLVE_BENEATH && has rs RESOLVE_NO_XDEV)) = true ->
  okd Qfd (w_openat2 fz fd p fl m rs).
Proof.
  intros Hfd Hm Hr. apply okp_if; [apply okp_err|].
  apply okp_if; [apply fail1_ok|].
  apply wcall_fd_ok. split; [|reflexivity]. cbn [disc_b]. rewrite Hfd, Hm, Hr, openat2_flags_cloexec. cbn [andb].
  pose proof (openat2_flags_noctty fl) as Hn. apply orb_true_iff in Hn.
  destruct Hn as [ -> | -> ]; [reflexivity|rewrite orb_true_r; reflexivity].
Qed.

(* the resolve word of every openat2 call is a constant mask that confines the lookup, or'ed
   with caller flags *)
Definition mask_ok (m : N) : bool :=
  has m RESOLVE_NO_MAGICLINKS && (has m RESOLVE_IN_ROOT || (has m RESOLVE_BENEATH && has m RESOLVE_NO_XDEV)).

Lemma w_openat2_mask_ok fz fd p fl m0 m rf :
  real_fd fd = true -> mask_ok m = true -> okd Qfd (w_openat2 fz fd p fl m0 (N.lor m rf)).
Proof.
  intros Hfd Hm. apply andb_true_iff in Hm as [H1 H2].
  apply w_openat2_ok; [exact Hfd|apply has_lor_l, H1|].
  apply orb_true_iff in H2 as [H|H]; [rewrite (has_lor_l _ rf _ H); reflexivity|].
  apply andb_true_iff in H as [Ha Hb]. rewrite (has_lor_l _ rf _ Ha), (has_lor_l _ rf _ Hb). apply orb_true_r.
Qed.

Lemma dup_cloexec_ok fd : real_fd fd = true -> okd Qfd (dup_cloexec fd).
Proof. intro Hfd. apply call_fd_ok. pdn_solve. Qed.

Lemma close_ok fd : real_fd fd = true -> okd QT (close fd).
Proof. intro Hfd. unfold close. constructor; [pdn_solve|]. intro; constructor; exact I. Qed.

Lemma w_fsopen_ok : okd Qfd (w_fsopen (b "proc") FSOPEN_FLAGS).
Proof. apply call_fd_ok. split; reflexivity. Qed.

Lemma w_fsconfig_set_string_ok fz sfd k v : real_fd sfd = true ->
  okd (okR QT) (w_fsconfig_set_string fz sfd k v).
Proof.
  intro H. apply okp_if; [apply okp_err|]. apply wcall_okd. pdn_solve.
Qed.

Lemma w_fsconfig_create_ok fz sfd : real_fd sfd = true -> okd (okR QT) (w_fsconfig_create fz sfd).
Proof.
  intro H. apply okp_if; [apply okp_err|]. apply wcall_okd. pdn_solve.
Qed.

Lemma w_fsmount_ok fz sfd : real_fd sfd = true -> okd Qfd (w_fsmount fz sfd FSMOUNT_FLAGS FSMOUNT_ATTRS).
Proof.
  intro H. apply okp_if; [apply okp_err|]. apply wcall_fd_ok. pdn_solve.
Qed.

Lemma w_open_tree_ok fz fl :
  okd Qfd (w_open_tree fz AT_FDCWD (b "/proc") (N.lor OPEN_TREE_BASE fl)).
Proof.
  apply rustix_path_ok, wcall_fd_ok.
  split; [|reflexivity]. cbn [disc_b]. change (Z.eqb AT_FDCWD AT_FDCWD) with true.
  change (beq (b "/proc") (b "/proc")) with true. cbn [andb].
  rewrite (has_lor_r _ OPEN_TREE_FORCED OPEN_TREE_CLOEXEC eq_refl). cbn [andb].
  apply has_lor_l, has_lor_l. reflexivity.
Qed.

Definition nc (fl : N) : Prop := has fl O_CREAT = false.

Lemma nc_lor a c : nc a -> nc c -> nc (N.lor a c).
Proof. unfold nc. change O_CREAT with (2 ^ 6). rewrite has_lor_bit. intros -> ->. reflexivity. Qed.

(* the caller's flags are checked before they are used: O_CREAT is among the refused ones *)
Lemma invalid_false_no_creat fl : procfs_flags_invalid fl = false -> nc fl.
Proof.
  unfold procfs_flags_invalid. intro H. apply orb_false_iff in H. destruct H as [H _].
  apply (intersects_false_has fl PROCFS_INVALID_FLAGS O_CREAT); [discriminate|reflexivity|exact H].
Qed.

Lemma refused_false_no_creat fl : follow_refused fl = false -> nc fl.
Proof.
  unfold follow_refused. intro H. apply orb_false_iff in H. destruct H as [H _].
  apply (intersects_false_has fl OPEN_FOLLOW_REFUSED O_CREAT); [discriminate|reflexivity|exact H].
Qed.

(* ---- one traversal of the programs for every per-call judgement ----------------------------
   What a proof that walks a program needs of the judgement: a predicate on calls ([jP], and
   [jP'] where the one open that may follow is allowed), the panic sites admitted, which
   descriptors ([jG]) and flag words ([jF]) may be handed to a wrapper, and a contract per
   wrapper with the guards it needs under either reading. *)
(* primitive projections: no match-defined projection per field to check *)
Local Set Primitive Projections.
Record judge := {
  jP : call -> Prop; jP' : call -> Prop; jS : N -> Prop; jG : Z -> Prop; jF : N -> Prop;
  j_weak : forall c, jP c -> jP' c;
  j_nc : forall fl, nc fl -> jF fl;
  j_lor : forall a c, jF a -> jF c -> jF (N.lor a c);
  j_thread_self : jS PANIC_THREAD_SELF;
  j_fstat : TRY_FROM_FD_FSTAT_PANICS = true -> jS PANIC_FSTAT_PROC;
  j_rc : jS PANIC_RC_UNWRAP;
  j_partial : PARTIAL_UNREACHABLE_PANICS = true -> jS PANIC_PARTIAL_UNREACHABLE;
  j_gettid : jP Gettid;
  j_geteuid : jP Geteuid;
  j_faccessat : forall fd p, jG fd -> single p = true -> jP (Faccessat fd p 0 AT_SYMLINK_NOFOLLOW);
  j_close : forall fd, jG fd -> okp jP jS QT (close fd);
  j_dup : forall fd, jG fd -> okp jP jS (okR jG) (dup_cloexec fd);
  j_openat : forall fz fd n fl m, jG fd -> single n = true -> jF fl -> okp jP jS (okR jG) (w_openat fz fd n fl m);
  j_openat_follow : forall fz fd n fl m,
    jG fd -> single n = true -> jF fl -> okp jP' jS (okR jG) (w_openat_follow fz fd n fl m);
  j_openat2 : forall fz fd p fl m0 m rf,
    jG fd -> mask_ok m = true -> jF fl -> okp jP jS (okR jG) (w_openat2 fz fd p fl m0 (N.lor m rf));
  j_readlinkat : forall fz fd, jG fd -> okp jP jS (okR QT) (w_readlinkat fz fd []);
  j_fstatat : forall fz fd n, jG fd -> stat_name n || is_task_path n = true -> okp jP jS (okR QT) (w_fstatat fz fd n);
  j_statx : forall fz fd n mask, jG fd -> stat_name n = true -> okp jP jS (okR QT) (w_statx fz fd n mask);
  j_fstatfs : forall fz fd, jG fd -> okp jP jS (okR QT) (w_fstatfs fz fd);
  j_fsopen : okp jP jS (okR jG) (w_fsopen (b "proc") FSOPEN_FLAGS);
  j_fsconfig_set_string : forall fz sfd k v, jG sfd -> okp jP jS (okR QT) (w_fsconfig_set_string fz sfd k v);
  j_fsconfig_create : forall fz sfd, jG sfd -> okp jP jS (okR QT) (w_fsconfig_create fz sfd);
  j_fsmount : forall fz sfd, jG sfd -> okp jP jS (okR jG) (w_fsmount fz sfd FSMOUNT_FLAGS FSMOUNT_ATTRS);
  j_open_tree : forall fz fl, okp jP jS (okR jG) (w_open_tree fz AT_FDCWD (b "/proc") (N.lor OPEN_TREE_BASE fl));
  j_openat_proc : forall fz m, okp jP jS (okR jG) (w_openat fz AT_FDCWD (b "/proc") UNSAFE_OPEN_FLAGS m);
}.

Local Unset Primitive Projections.

(* C05 / C10: the discipline, the known panic sites, real descriptors, any flags *)
Definition Jd : judge := {|
  jP := Pdn; jP' := Pd; jS := allowed_panic; jG := fun fd => real_fd fd = true; jF := fun _ => True;
  j_weak := Pdn_Pd; j_nc := fun _ _ => I; j_lor := fun _ _ _ _ => I;
  j_thread_self := or_introl eq_refl;
  j_fstat := fun H => or_intror (or_intror (or_introl (conj H eq_refl)));
  j_rc := or_intror (or_introl eq_refl);
  j_partial := fun H => or_intror (or_intror (or_intror (conj H eq_refl)));
  j_gettid := conj eq_refl eq_refl; j_geteuid := conj eq_refl eq_refl;
  j_faccessat := fun fd p Hfd Hp => conj (andb_true_intro (conj (andb_true_intro (conj Hfd Hp)) eq_refl)) eq_refl;
  j_close := close_ok; j_dup := dup_cloexec_ok;
  j_openat := fun fz fd n fl m Hfd Hn _ => w_openat_ok fz fd n fl m Hfd Hn;
  j_openat_follow := fun fz fd n fl m Hfd Hn _ => w_openat_follow_ok fz fd n fl m Hfd Hn;
  j_openat2 := fun fz fd p fl m0 m rf Hfd Hm _ => w_openat2_mask_ok fz fd p fl m0 m rf Hfd Hm;
  j_readlinkat := w_readlinkat_ok; j_fstatat := w_fstatat_ok; j_statx := w_statx_ok; j_fstatfs := w_fstatfs_ok;
  j_fsopen := w_fsopen_ok; j_fsconfig_set_string := w_fsconfig_set_string_ok;
  j_fsconfig_create := w_fsconfig_create_ok; j_fsmount := w_fsmount_ok;
  j_open_tree := w_open_tree_ok; j_openat_proc := w_openat_proc_ok |}.

(* ---- failure tails: an error return satisfies every [okR _], a good descriptor may always be
   closed, the strict judgement gives the one that lets an open follow -- for the discipline and
   for any judge.  [auto with tails] disposes of `close a ;;; close b ;;; Ret r`. ------------- *)

Lemma okd_close {A} (Q : A -> Prop) fd (p : prog A) : real_fd fd = true -> okd Q p -> okd Q (close fd ;;; p).
Proof. intros H Hp. eapply okp_then; [apply close_ok, H|exact Hp]. Qed.

Lemma okp_retT {A E} P S (r : result A E) : okp P S (okR QT) (Ret r).
Proof. constructor. apply okR_T. Qed.

Section Tails.
Variable J : judge.
Notation okg := (okp (jP J) (jS J)).
Notation okg' := (okp (jP' J) (jS J)).

Lemma okg_close {A} (Q : A -> Prop) fd (p : prog A) : jG J fd -> okg Q p -> okg Q (close fd ;;; p).
Proof. intros H Hp. eapply okp_then; [apply j_close, H|exact Hp]. Qed.

Lemma okg'_of {A} (Q : A -> Prop) (p : prog A) : okg Q p -> okg' Q p.
Proof. apply okp_weaken_P, j_weak. Qed.

Lemma okg'_bind {A B} (Q1 : A -> Prop) (Q2 : B -> Prop) (p : prog A) (f : A -> prog B) :
  okg Q1 p -> (forall a, Q1 a -> okg' Q2 (f a)) -> okg' Q2 (bind p f).
Proof. intro H. apply okp_bind, okg'_of, H. Qed.

Lemma okg'_bindR {A B E} (Qa : A -> Prop) (Qb : B -> Prop) (p : prog (result A E)) (f : A -> prog (result B E)) :
  okg (okR Qa) p -> (forall a, Qa a -> okg' (okR Qb) (f a)) -> okg' (okR Qb) (bindR p f).
Proof. intro H. apply okp_bindR, okg'_of, H. Qed.

End Tails.

Create HintDb tails.
#[export] Hint Resolve okd_close okg_close okp_retT ok_ret okg'_of : tails.
(* an error return; an Extern because [Qfd] and its like hide their [okR] from a Resolve pattern *)
#[export] Hint Extern 1 (okp _ _ _ (Ret (Err _))) => apply okp_err : tails.

Definition singles (cs : list bytes) : Prop := Forall (fun c => single c = true) cs.

Lemma singles_raw p : singles (raw_components p).
Proof. eapply Forall_impl; [exact single_of_no_slash|apply raw_components_no_slash]. Qed.

Lemma singles_app a c : singles a -> singles c -> singles (a ++ c).
Proof. unfold singles. intros. apply Forall_app; split; assumption. Qed.

Lemma task_cand_ok c tid : In c (thread_self_cands tid) -> stat_name c || is_task_path c = true.
Proof.
  unfold thread_self_cands. intros [H|[H|[H|[]]]]; subst; try reflexivity.
  rewrite task_path_ok. apply orb_true_r.
Qed.

(* ---- procfs.rs / resolvers/procfs.rs -------------------------------------- *)

Section Procfs.
Variable J : judge.
Variable fz : nat.
Variable cfg : bool.   (* ProcfsM.cfg_openat2: openat2 is supported *)
Notation okg := (okp (jP J) (jS J)).
Notation okg' := (okp (jP' J) (jS J)).
Notation G := (jG J).

Lemma fetch_mnt_id_ok fd n : G fd -> stat_name n = true -> okg (okR QT) (fetch_mnt_id fz fd n).
Proof.
  intros Hfd Hn. unfold fetch_mnt_id.
  eapply okp_bind; [apply j_statx; assumption|]. intros [[mask id]|e] _; [auto with tails|].
  destruct (existsb _ _); auto with tails.
Qed.

Lemma verify_same_mnt_ok m fd n : G fd -> stat_name n = true -> okg (okR QT) (verify_same_mnt fz m fd n).
Proof.
  intros Hfd Hn. unfold verify_same_mnt.
  eapply okp_bindR; [apply fetch_mnt_id_ok; assumption|].
  intros mnt _. destruct (opt_n_eqb m mnt); auto with tails.
Qed.

Lemma verify_is_procfs_ok fd : G fd -> okg (okR QT) (verify_is_procfs fz fd).
Proof.
  intro Hfd. unfold verify_is_procfs.
  eapply okp_bindR; [apply okp_os, j_fstatfs; assumption|].
  intros t _. destruct (N.eqb t PROC_SUPER_MAGIC); auto with tails.
Qed.

Lemma verify_same_procfs_mnt_ok h fd : G fd -> okg (okR QT) (verify_same_procfs_mnt fz h fd).
Proof.
  intro Hfd. unfold verify_same_procfs_mnt.
  eapply okp_bindR; [apply verify_same_mnt_ok; [assumption|reflexivity]|].
  intros _ _. apply verify_is_procfs_ok; assumption.
Qed.

Lemma openat2_retry_ok n root p fl m rf :
  G root -> mask_ok m = true -> jF J fl -> okg (okR G) (openat2_retry fz n root p fl (N.lor m rf)).
Proof.
  intros Hr Hm Hfl. induction n as [|n IH]; cbn [openat2_retry]; [auto with tails|].
  eapply okp_bind; [apply j_openat2; assumption|]. intros [fd|e] Hfd; [auto with tails|].
  destruct (N.eqb e EAGAIN); [exact IH|auto with tails].
Qed.

Lemma openat2_resolve_ok root p fl rf : G root -> jF J fl -> okg (okR G) (openat2_resolve fz cfg root p fl rf).
Proof.
  intros Hr Hfl. unfold openat2_resolve. destruct cfg; cbn [negb]; [|auto with tails].
  destruct (N.eqb PROCFS_OPENAT2_RETRIES 0).
  - apply okp_os, j_openat2; [assumption|reflexivity|assumption].
  - apply openat2_retry_ok; [assumption|reflexivity|assumption].
Qed.

Lemma pwalk_body_ok m fl rf follow :
  jF J fl ->
  (forall go, follow = Some go -> forall cur cs, G cur -> singles cs -> okg (okR G) (go cur cs)) ->
  forall cur cs, G cur -> singles cs -> okg (okR G) (pwalk_body fz m fl rf follow cur cs).
Proof.
  intros Hfl Hgo cur cs. revert cur. induction cs as [|part0 rest IH]; intros cur Hcur Hcs; cbn [pwalk_body].
  { auto with tails. }
  apply Forall_cons_iff in Hcs as [Hp0 Hrest].
  set (part := if is_nil part0 then [DOT] else part0).
  assert (Hpart : single part = true) by (unfold part; destruct (is_nil part0); [reflexivity|exact Hp0]).
  apply okp_if; [auto with tails|].
  eapply okp_os_bind; [apply j_openat; [assumption..|apply j_nc; reflexivity]|].
  intros [next|e] Hnext; [|auto with tails]. cbn in Hnext.
  eapply okp_bind; [apply verify_same_mnt_ok; [assumption|reflexivity]|]. intros [_u|e] _; [|auto with tails].
  eapply okp_os_bind; [apply j_fstatat; [assumption|reflexivity]|]. intros [meta|e] _; [|auto with tails].
  (* the walk past [part]: one proof for its two occurrences *)
  set (continue_ := if negb (is_symlink_mode (st_mode meta)) then _ else _).
  assert (Hcont : okg (okR G) continue_).
  { unfold continue_. apply okp_if; [auto with tails|]. apply okp_if; [auto with tails|].
    destruct follow as [go|]; [|auto with tails].
    eapply okp_os_bind; [apply j_readlinkat; assumption|]. intros [target|e] _; [|auto with tails].
    apply okp_if; [auto with tails|].
    apply okg_close; [assumption|].
    eapply Hgo; [reflexivity|assumption|]. apply singles_app; [apply singles_raw|assumption]. }
  apply okp_if; [|exact Hcont].
  eapply okp_bind; [apply j_openat; [assumption..|apply j_lor; [exact Hfl|apply j_nc; reflexivity]]|].
  intros [final|e] Hfinal.
  - cbn in Hfinal.
    eapply okp_bind; [apply verify_same_mnt_ok; [assumption|reflexivity]|]. intros [_u2|e] _; auto with tails.
  - apply okp_if; [auto with tails|exact Hcont].
Qed.

Lemma pwalk_ok budget m fl rf cur cs :
  jF J fl -> G cur -> singles cs -> okg (okR G) (pwalk fz budget m fl rf cur cs).
Proof. intro Hfl. revert cur cs. apply pwalk_budget_ind. exact (fun follow => pwalk_body_ok m fl rf follow Hfl). Qed.

Lemma opath_resolve_ok root p fl rf : G root -> jF J fl -> okg (okR G) (opath_resolve fz root p fl rf).
Proof.
  intros Hr Hfl. unfold opath_resolve.
  eapply okp_bindR; [apply fetch_mnt_id_ok; [assumption|reflexivity]|]. intros m _.
  eapply okp_bindR; [apply okp_os, j_dup; assumption|]. intros cur Hcur.
  apply pwalk_ok; [exact Hfl|exact Hcur|apply singles_raw].
Qed.

(* ProcfsResolver::resolve refuses O_CREAT before it uses the flags *)
Lemma presolve_ok use root p fl rf : G root -> okg (okR G) (presolve fz cfg use root p fl rf).
Proof.
  intro Hr. unfold presolve. destruct (procfs_flags_invalid fl) eqn:E; [auto with tails|].
  apply invalid_false_no_creat, (j_nc J) in E.
  destruct use; [apply openat2_resolve_ok|apply opath_resolve_ok]; assumption.
Qed.

Lemma into_path_ok root base : G root -> okg QT (into_path fz root base).
Proof.
  intro Hr. destruct base; cbn [into_path]; try (constructor; exact I).
  constructor; [apply j_gettid|]. intro rt.
  pose proof (fun c => task_cand_ok c (as_num rt)) as Hc.
  induction (thread_self_cands (as_num rt)) as [|c rest IH]; [constructor; apply j_thread_self|].
  eapply okp_bind; [apply j_fstatat; [assumption|apply Hc; left; reflexivity]|]. intros [_u|e] _.
  - constructor; exact I.
  - apply IH. intros c' Hin. apply Hc. right. exact Hin.
Qed.

Notation Qph := (okR (fun h => G (ph_fd h))).

Lemma try_from_fd_ok inner : G inner -> okg Qph (try_from_fd fz cfg inner).
Proof.
  intro Hi. unfold try_from_fd.
  eapply okp_bind; [apply verify_is_procfs_ok; assumption|]. intros [_u|e] _; [|auto with tails].
  eapply okp_bind; [apply j_fstatat; [assumption|reflexivity]|]. intros [meta|e] _.
  2: { destruct TRY_FROM_FD_FSTAT_PANICS eqn:Efl; [|auto with tails]. constructor. apply j_fstat, Efl. }
  apply okp_if; [auto with tails|].
  eapply okp_bind; [apply fetch_mnt_id_ok; [assumption|reflexivity]|]. intros [mnt|e] _; [|auto with tails].
  assert (Hp : singles SUBSET_PROBES) by (repeat constructor).
  induction Hp as [|p rest Hp _ IH]; [constructor; exact Hi|].
  constructor; [apply j_faccessat; assumption|]. intro r. destruct (as_unit r); [exact IH|constructor; exact Hi].
Qed.

Lemma new_fsopen_ok subset : okg Qph (new_fsopen fz cfg subset).
Proof.
  unfold new_fsopen.
  eapply okp_bindR; [apply okp_os, j_fsopen|]. intros sfd Hs.
  eapply okp_then with (Q1 := QT).
  { apply okp_if; [|constructor; exact I].
    do 2 (eapply okp_then; [apply j_fsconfig_set_string; assumption|]). constructor; exact I. }
  eapply okp_os_bind; [apply j_fsconfig_create; assumption|]. intros [_u|e] _; [|auto with tails].
  eapply okp_os_bind; [apply j_fsmount; assumption|]. intros [mfd|e] Hm; [|auto with tails].
  eapply okp_bind; [apply try_from_fd_ok; exact Hm|]. intros r Hr. auto with tails.
Qed.

Lemma new_open_tree_ok fl : okg Qph (new_open_tree fz cfg fl).
Proof.
  unfold new_open_tree.
  eapply okp_bindR; [apply okp_os, j_open_tree|]. intros fd Hfd. apply try_from_fd_ok; exact Hfd.
Qed.

Lemma new_unsafe_open_ok : okg Qph (new_unsafe_open fz cfg).
Proof.
  unfold new_unsafe_open.
  eapply okp_bindR; [apply okp_os, j_openat_proc|]. intros fd Hfd. apply try_from_fd_ok; exact Hfd.
Qed.

Lemma or_else_ok {A} (Qa : A -> Prop) (p q : prog (result A ekind)) :
  okg (okR Qa) p -> okg (okR Qa) q -> okg (okR Qa) (or_else p q).
Proof.
  intros Hp Hq. unfold or_else. eapply okp_bind; [exact Hp|]. intros r Hr.
  destruct r; [constructor; exact Hr|exact Hq].
Qed.

Lemma procfs_new_ok : okg Qph (procfs_new fz cfg).
Proof.
  unfold procfs_new. repeat apply or_else_ok;
    [apply new_fsopen_ok|apply new_open_tree_ok|apply new_unsafe_open_ok].
Qed.
Lemma procfs_new_unmasked_ok : okg Qph (procfs_new_unmasked fz cfg).
Proof.
  unfold procfs_new_unmasked. repeat apply or_else_ok;
    [apply new_fsopen_ok|apply new_open_tree_ok|apply new_unsafe_open_ok].
Qed.

Lemma verified_or_closed h fd :
  G fd ->
  okg (okR G) (v <- verify_same_procfs_mnt fz h fd ;;
               match v with Ok _ => Ret (Ok fd) | Err e => close fd ;;; Ret (Err e) end).
Proof.
  intros Hfd. eapply okp_bind; [apply verify_same_procfs_mnt_ok; assumption|].
  intros [_u|e] _; auto with tails.
Qed.

Lemma open_base_ok h base : G (ph_fd h) -> okg (okR G) (open_base fz cfg h base).
Proof.
  intro Hh. unfold open_base.
  eapply okp_bind; [apply into_path_ok; assumption|]. intros p _.
  eapply okp_bindR; [apply presolve_ok; assumption|]. intros fd Hfd.
  apply verified_or_closed; assumption.
Qed.

Lemma popen_ok fuel : forall h base sub fl, G (ph_fd h) -> okg (okR G) (popen fz cfg fuel h base sub fl).
Proof.
  induction fuel as [|f IH]; intros h base sub fl Hh; cbn [popen]; [constructor|].
  eapply okp_bindR; [apply open_base_ok; assumption|]. intros basedir Hb.
  eapply okp_bind; [apply presolve_ok; assumption|]. intros r Hr.
  eapply okp_bind with (Q1 := okR G).
  { destruct r as [fd|e]; [apply verified_or_closed; assumption|auto with tails]. }
  intros r2 Hr2.
  eapply okp_bind with (Q1 := okR G); [|intros r3 Hr3; auto with tails].
  destruct r2 as [fd|e]; [auto with tails|].
  apply okp_if; [|auto with tails].
  eapply okp_bind; [apply procfs_new_unmasked_ok|]. intros [h'|e'] Hnh; [|auto with tails]. cbn in Hnh.
  apply okp_if; [auto with tails|].
  eapply okp_bind; [apply IH; exact Hnh|]. intros r' Hr'. auto with tails.
Qed.

Lemma preadlink_ok fuel h base sub : G (ph_fd h) -> okg (okR QT) (preadlink fz cfg fuel h base sub).
Proof.
  intro Hh. unfold preadlink.
  eapply okp_bindR; [apply popen_ok; assumption|]. intros link Hl.
  eapply okp_os_bind; [apply j_readlinkat; assumption|]. intros r _. auto with tails.
Qed.

(* open_follow is a prefix in which nothing may be followed (the refusals, the readlink probe,
   opening the parent and reading its mount id) and then the mount check of (parent, name) with
   the one open that may follow, with flags that passed the refusal.  What holds of that tail,
   and passes through a prefix that is [okg], holds of open_follow. *)
Lemma popen_follow_cases (K : prog (result Z ekind) -> Prop) :
  (forall p, okg (okR G) p -> K p) ->
  (forall A (Q : A -> Prop) p f, okg Q p -> (forall a, Q a -> K (f a)) -> K (bind p f)) ->
  (forall pfd m trailing fl, G pfd -> single trailing = true -> jF J fl ->
     K (r <- verify_same_mnt fz m pfd trailing ;;
        match r with
        | Err e => close pfd ;;; Ret (Err e)
        | Ok _ => r <- os (w_openat_follow fz pfd trailing fl 0) ;; close pfd ;;; Ret r
        end)) ->
  forall fuel h base sub fl, G (ph_fd h) -> K (popen_follow fz cfg fuel h base sub fl).
Proof.
  intros Hd Hb Htail fuel h base sub fl Hh. unfold popen_follow.
  destruct (negb _ && _) eqn:E1; [apply Hd; auto with tails|].
  destruct (path_strip_trailing_slash sub) as [sub' ts].
  set (fl' := if ts then N.lor fl OPEN_FOLLOW_SLASH_FLAG else fl).
  destruct (OPEN_FOLLOW_REFUSAL_AFTER_SLASH && _) eqn:E2; [apply Hd; auto with tails|].
  (* OPEN_FOLLOW_REFUSAL_AFTER_SLASH says which of the two refusal tests the source has: after
     the slash flag was added (E2 is about fl') or before (E1 is about fl, and the flag adds no O_CREAT) *)
  assert (Hfl : jF J fl').
  { destruct OPEN_FOLLOW_REFUSAL_AFTER_SLASH; cbn [negb andb] in E1, E2.
    - apply j_nc, refused_false_no_creat, E2.
    - apply refused_false_no_creat, (j_nc J) in E1. unfold fl'.
      destruct ts; [apply j_lor; [exact E1|apply j_nc; reflexivity]|exact E1]. }
  clearbody fl'.
  eapply Hb; [apply preadlink_ok; assumption|]. intros [_b|e] _.
  2: { destruct (_ && negb _); apply Hd; [auto with tails|apply popen_ok; assumption]. }
  destruct (path_split sub') as [[[parent [trailing|]]|e]|] eqn:Hsp;
    [|apply Hd; auto with tails..|exfalso; exact (path_split_total _ Hsp)].
  eapply Hb; [apply popen_ok; assumption|]. intros [pfd|e] Hp; [|apply Hd; auto with tails].
  eapply Hb; [apply fetch_mnt_id_ok; [exact Hp|reflexivity]|]. intros [pm|e] _; [|apply Hd; auto with tails].
  apply Htail; [exact Hp|apply single_of_no_slash, (path_split_name_single _ _ _ Hsp)|exact Hfl].
Qed.

(* open_follow: exactly one call is judged by [jP'] *)
Lemma popen_follow_ok fuel h base sub fl :
  G (ph_fd h) -> okg' (okR G) (popen_follow fz cfg fuel h base sub fl).
Proof.
  apply (popen_follow_cases (okg' (okR G))); [exact (@okg'_of J _ _)|exact (fun A Q => @okg'_bind J A _ Q _)|].
  intros pfd m trailing fl' Hp Htr Hfl.
  eapply okg'_bind; [apply verify_same_mnt_ok; [exact Hp|]|].
  { unfold stat_name. rewrite Htr. apply orb_true_r. }
  intros [_u|e] _; [|auto with tails].
  eapply okp_os_bind; [apply j_openat_follow; assumption|]. intros r Hr. auto with tails.
Qed.

Lemma reopen_ok fuel gh fd fl : G (ph_fd gh) -> G fd -> okg' (okR G) (reopen fz cfg fuel gh fd fl).
Proof.
  intros Hg Hfd. unfold reopen.
  eapply okg'_bindR; [apply okp_os, j_fstatat; [assumption|reflexivity]|]. intros meta _.
  apply okp_if; [auto with tails|].
  destruct (proc_subpath fd); [|auto with tails].
  apply popen_follow_ok; assumption.
Qed.

Lemma as_unsafe_path_ok fuel gh fd : G (ph_fd gh) -> okg (okR QT) (as_unsafe_path fz cfg fuel gh fd).
Proof.
  intro Hg. unfold as_unsafe_path. destruct (proc_subpath fd); [|auto with tails].
  apply preadlink_ok; assumption.
Qed.

Lemma is_magiclink_filesystem_ok fd : G fd -> okg (okR QT) (is_magiclink_filesystem fz fd).
Proof.
  intro Hfd. unfold is_magiclink_filesystem.
  eapply okp_bindR; [apply okp_os, j_fstatfs; assumption|]. intros t _. auto with tails.
Qed.

End Procfs.

