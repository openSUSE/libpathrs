(* DynDepth.v -- a depth bound for the trees the operations build: remove_all's fuel is sufficient.
   [depth_ok s]: a depth function with every directory entry one deeper than the directory holding it, bounded by
   the number of objects.  It is preserved by every operation that does not move a directory -- [op_ok] excludes
   the renameat2 of a directory, which changes the depth of a whole subtree -- and it gives [deep s (#objects) c]
   for every c. *)
From PV Require Import Dyn DynProofs DynMkdir DynRemove DynRemoveTotal DynInv.

Definition depth_ok (s : fs) : Prop :=
  exists df : nat -> nat,
    (forall d n c, In (d, n, c) (ents s) -> is_dir s c = true -> df c = S (df d)) /\
    (forall o, (df o <= length (kinds s))%nat).

Lemma depth_deep s : depth_ok s -> forall c, deep s (length (kinds s)) c.
Proof.
  intros (df & Hstep & Hb).
  assert (H : forall k c, (length (kinds s) - df c <= k)%nat -> deep s k c).
  { induction k as [|k IH]; intros c Hk; cbn [deep].
    - intros n c' Hin. destruct (is_dir s c') eqn:E; [|reflexivity]. exfalso.
      pose proof (Hstep _ _ _ Hin E) as H1. pose proof (Hb c') as H2. lia.
    - intros n c' Hin E. apply IH. pose proof (Hstep _ _ _ Hin E) as H1. lia. }
  intro c. apply H. lia.
Qed.

Lemma depth_shrinks s s' : shrinks s s' -> depth_ok s -> depth_ok s'.
Proof.
  intros Hs (df & Hstep & Hb). pose proof Hs as (Hk & _ & Hi). exists df. split.
  - intros d n c Hin E. rewrite (is_dir_shrinks _ _ c Hs) in E. exact (Hstep d n c (Hi _ Hin) E).
  - intro o. rewrite Hk. apply Hb.
Qed.

Lemma depth_add_ent s d n c : is_dir s c = false -> depth_ok s -> depth_ok (add_ent s d n c).
Proof.
  intros Hc (df & Hstep & Hb). exists df. split; [|exact Hb].
  intros d0 n0 c0 Hin E. unfold add_ent in Hin. cbn [FSModel.ents] in Hin. apply in_app_or in Hin.
  change (is_dir (add_ent s d n c) c0) with (is_dir s c0) in E.
  destruct Hin as [Hin|[Hin|[]]]; [exact (Hstep _ _ _ Hin E)|]. inversion Hin; subst. congruence.
Qed.

Lemma depth_add_obj s d n k : inv s -> (d < length (kinds s))%nat -> depth_ok s -> depth_ok (FSModel.add_obj s d n k).
Proof.
  intros Hi Hd (df & Hstep & Hb). set (nw := length (kinds s)).
  exists (fun o => if Nat.eqb o nw then S (df d) else df o). split.
  - intros d0 n0 c0 Hin E. unfold FSModel.add_obj in Hin. cbn [FSModel.ents] in Hin. apply in_app_or in Hin.
    destruct Hin as [Hin|[Hin|[]]].
    + destruct Hi as (_ & _ & He & _). destruct (He _ Hin) as (A & B & _). cbn [ent_dir ent_obj fst snd] in A, B.
      destruct (Nat.eqb_spec c0 nw) as [->|_]; [destruct (Nat.lt_irrefl _ B)|]. destruct (Nat.eqb_spec d0 nw) as [->|_]; [destruct (Nat.lt_irrefl _ A)|].
      apply (Hstep _ _ _ Hin). unfold FSModel.is_dir in *. rewrite kind_add_obj_old in E by exact B. exact E.
    + inversion Hin; subst d0 n0 c0. fold nw. rewrite Nat.eqb_refl. destruct (Nat.eqb_spec d nw) as [->|_]; [destruct (Nat.lt_irrefl _ Hd)|reflexivity].
  - intro o. unfold FSModel.add_obj. cbn [FSModel.kinds]. rewrite app_length. cbn [length]. rewrite Nat.add_1_r.
    destruct (Nat.eqb o nw); [exact (le_n_S _ _ (Hb d))|exact (Nat.le_le_succ_r _ _ (Hb o))].
Qed.

Definition inv_depth (s : fs) : Prop := inv s /\ depth_ok s.

Lemma adds_depth s s' : adds s s' -> inv_depth s -> inv_depth s'.
Proof.
  intros Ha [Hi Hd]. split; [exact (adds_inv _ _ Ha Hi)|]. destruct Ha as [->|(d & n & k & Ed & _ & _ & ->)]; [exact Hd|].
  apply depth_add_obj; [exact Hi|exact (is_dir_lt _ _ Ed)|exact Hd].
Qed.

Lemma link_depth s od on nd nn fl : inv_depth s -> inv_depth (tree_of (link_sem s od on nd nn fl) s).
Proof.
  intros [Hi Hd]. split; [apply link_inv, Hi|]. destruct (link_tree s od on nd nn fl) as [->|(c & _ & _ & _ & Ec & _ & ->)]; [exact Hd|].
  apply depth_add_ent; assumption.
Qed.

(* renameat2 of something that is not a directory (onto nothing, or onto / in exchange with a non-directory) *)
Definition moves_no_dir (s : fs) (od : nat) (on : bytes) (nd : nat) (nn : bytes) : bool :=
  match lookup s od on with
  | Some c => negb (is_dir s c) && match lookup s nd nn with Some e => negb (is_dir s e) | None => true end
  | None => true
  end.

Lemma depth_del_ent s d n : depth_ok s -> depth_ok (del_ent s d n).
Proof. apply depth_shrinks, del_ent_shrinks. Qed.

(* nothing is re-parented: the entries move, one by one *)
Lemma rename_depth s od on nd nn fl : moves_no_dir s od on nd nn = true -> inv_depth s -> inv_depth (tree_of (rename_sem s od on nd nn fl) s).
Proof.
  intros Hm [Hi Hd]. split; [apply rename_inv, Hi|]. unfold moves_no_dir in Hm.
  pose proof (rename_cases s od on nd nn fl) as C. pose proof (rename_sem_not_open s od on nd nn fl) as Hno.
  destruct (rename_sem s od on nd nn fl) as [| |T|]; cbn [tree_of]; [exact Hd|exact Hd| |destruct Hno].
  destruct C as [->|(c & _ & _ & _ & _ & Elo & Hshape)]; [exact Hd|].
  rewrite Elo in Hm. apply andb_true_iff in Hm. destruct Hm as [Hc He]. apply negb_true_iff in Hc.
  destruct Hshape as [[Eln ->]|(e & Eln & _ & Hshape)].
  - rewrite reparent_nondir by exact Hc. apply depth_add_ent; [exact Hc|]. apply depth_del_ent, Hd.
  - rewrite Eln in He. apply negb_true_iff in He. destruct Hshape as [->| ->].
    + rewrite reparent_nondir by exact Hc. apply depth_add_ent; [exact Hc|]. apply depth_del_ent, depth_del_ent, Hd.
    + rewrite (reparent_nondir _ c nd) by exact Hc. rewrite reparent_nondir by exact He. apply depth_add_ent; [exact He|]. apply depth_add_ent; [exact Hc|]. apply depth_del_ent, depth_del_ent, Hd.
Qed.

Definition op_ok (s : fs) (o : op) : bool :=
  match o with
  | ORename od on nd nn _ => moves_no_dir s od on nd nn
  | _ => true
  end.

Fixpoint run_ops (s : fs) (ops : list op) : option fs :=
  match ops with
  | [] => Some s
  | o :: rest => if op_ok s o then run_ops (apply_op s o) rest else None
  end.

Lemma apply_op_depth s o : op_ok s o = true -> inv_depth s -> inv_depth (apply_op s o).
Proof.
  intros Hok Hg. pose proof (apply_op_shrinks s o) as Hs.
  destruct o; cbn [apply_op op_ok] in *; try exact (conj (inv_shrinks _ _ Hs (proj1 Hg)) (depth_shrinks _ _ Hs (proj2 Hg))).
  - exact (adds_depth _ _ (create_tree _ _ _ _) Hg).
  - exact (adds_depth _ _ (creat_tree _ _ _ _) Hg).
  - apply link_depth, Hg.
  - apply rename_depth; assumption.
  - apply (mk_spec_pres inv_depth); [intros s1 o1 p; apply adds_depth, create_tree|exact Hg].
Qed.

Lemma inv_depth_root_only : inv_depth root_only.
Proof. split; [exact inv_root_only|]. exists (fun _ => 0%nat). split; [intros d n c []|intro o; apply Nat.le_0_l]. Qed.

Theorem reachable_depth ops s : run_ops root_only ops = Some s -> inv s /\ depth_ok s.
Proof.
  assert (H : forall ops s0 s, inv_depth s0 -> run_ops s0 ops = Some s -> inv_depth s).
  { induction ops0 as [|o ops0 IH]; intros s0 s1 Hg Hr; cbn [run_ops] in Hr; [inversion Hr; subst; exact Hg|].
    destruct (op_ok s0 o) eqn:Eok; [|discriminate]. exact (IH _ _ (apply_op_depth s0 o Eok Hg) Hr). }
  exact (H ops root_only s inv_depth_root_only).
Qed.

(* remove_all never runs out of fuel on such a tree: #objects + #entries + 6 is enough, whatever it is asked to remove *)
Theorem remove_all_terminates_on_reachable ops s d name f :
  run_ops root_only ops = Some s -> (length (kinds s) + length (ents s) + 6 <= f)%nat -> rm_all f s d name <> None.
Proof.
  intros Hr Hf. destruct (reachable_depth ops s Hr) as [Hi Hd]. destruct (inv_facts s Hi) as (_ & Hok & _).
  apply (rm_all_total (length (kinds s)) f s d name Hok Hf). intros c _ _. exact (depth_deep s Hd c).
Qed.
