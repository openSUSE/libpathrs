(* RootBal.v -- C11 for resolvers/openat2.rs, resolvers.rs, root.rs, utils/dir.rs.
   The Root operations are proved balanced for ANY resolver that satisfies the
   lookup contracts [res_ok]/[resp_ok]; the kernel (openat2) backend is shown to
   satisfy them here, the emulated backend (Rc bookkeeping included) in OpathBal.v. *)
From PV Require Import FdBalance FdBalProofs.
From Coq Require Import Permutation.

Definition Rlk {E} (o : list Z) : result lookup E -> list Z -> Prop :=
  fun r o' => Permutation o' (match r with
                              | Ok (Complete fd) => fd :: o
                              | Ok (Partial fd _ _) => fd :: o
                              | Err _ => o end).

(* the descriptor handed out is the first component of the result *)
Definition Rfst {X E} (o : list Z) : result (Z * X) E -> list Z -> Prop :=
  fun r o' => Permutation o' (match r with Ok (d, _) => d :: o | Err _ => o end).

Section RootBal.
Variable fz : nat.
Variable cfg : bool.
Variable pfuel : nat.
Variable gh : phandle.
Variable sysctl_ps : N.

Lemma k_open_bal root path rf fl o : bal (Rfd o) o (k_open fz cfg root path rf fl).
Proof.
  unfold k_open, os. apply bal_if; [auto with owned|].
  apply bal_if; [apply bal_map_err_fd, w_openat2_bal|].
  unfold k_open_loop. apply openat2_retry_bal.
Qed.

Lemma k_resolve_loop_bal n root path fl rs o : bal (Rfd o) o (k_resolve_loop fz n root path fl rs).
Proof.
  induction n as [|m IH]; cbn [k_resolve_loop]; [auto with owned|].
  eapply bal_seq; [apply w_openat2_bal|]. intros [fd|e]; [auto with owned|].
  apply bal_if; [auto with owned|].
  apply bal_if; [exact IH|auto with owned].
Qed.

Lemma k_resolve_bal root path rf nf o : bal (Rfd o) o (k_resolve fz cfg root path rf nf).
Proof. unfold k_resolve. apply bal_if; [auto with owned|apply k_resolve_loop_bal]. Qed.

Lemma k_resolve_partial_bal root path rf nf o : bal (Rlk o) o (k_resolve_partial fz cfg root path rf nf).
Proof.
  unfold k_resolve_partial. eapply bal_seq; [apply k_resolve_bal|].
  intros [fd|e0]; [auto with owned|].
  generalize (partial_ancestors path) e0. intro anc.
  induction anc as [|[p rem] rest IH]; intro last; [destruct PARTIAL_UNREACHABLE_PANICS; auto with owned|].
  apply bal_if; [auto with owned|].
  eapply bal_seq; [apply k_resolve_bal|]. intros [fd|e]; [auto with owned|apply IH].
Qed.

(* ---- Root operations over an abstract resolver contract ---------------------- *)

Definition res_ok (rs : resolver) : Prop :=
  forall root path nf o, bal (Rfd o) o (r_resolve fz cfg pfuel gh sysctl_ps rs root path nf).
Definition resp_ok (rs : resolver) : Prop :=
  forall root path nf o, bal (Rlk o) o (r_resolve_partial fz cfg pfuel gh sysctl_ps rs root path nf).

Lemma kernel_res_ok rs : rs_kernel rs = true -> res_ok rs.
Proof. intros H root path nf o. unfold r_resolve. rewrite H. apply k_resolve_bal. Qed.
Lemma kernel_resp_ok rs : rs_kernel rs = true -> resp_ok rs.
Proof. intros H root path nf o. unfold r_resolve_partial. rewrite H. apply k_resolve_partial_bal. Qed.

(* from here on: any resolver that meets the two contracts *)
Variable rs : resolver.
Hypothesis Hres : res_ok rs.
Hypothesis Hresp : resp_ok rs.

Lemma h_reopen_bal fd fl o : bal (Rfd o) o (h_reopen fz cfg pfuel gh fd fl).
Proof. apply reopen_bal. Qed.

Theorem r_open_bal root path fl o : bal (Rfd o) o (r_open fz cfg pfuel gh sysctl_ps rs root path fl).
Proof.
  unfold r_open. apply bal_if; [auto with owned|].
  apply bal_if; [apply k_open_bal|].
  eapply bal_seqR; [apply Hres|reflexivity|]. intro h.
  unfold os. eapply bal_seq_same; [apply bal_map_err_same, w_fstatat_bal|].
  intros [meta|e]; [|auto with owned].
  apply bal_if.
  - apply bal_if; [auto with owned|].
    apply bal_if; [auto with owned|auto with owned].
  - apply holding_fd, h_reopen_bal.
Qed.

Lemma resolve_parent_bal root path o : bal (Rfst o) o (resolve_parent fz cfg pfuel gh sysctl_ps rs root path).
Proof.
  unfold resolve_parent. destruct (path_split path) as [[[parent name]|e]|]; [|auto with owned|constructor].
  eapply bal_seqR; [apply Hres|reflexivity|]. intro dir. auto with owned.
Qed.

Lemma parent_and_name_bal root path o : bal (Rfst o) o (parent_and_name fz cfg pfuel gh sysctl_ps rs root path).
Proof.
  unfold parent_and_name. eapply bal_seqR; [apply resolve_parent_bal|reflexivity|].
  intros [dir [n|]]; [auto with owned|auto with owned].
Qed.

Theorem root_readlink_bal root path o : bal (Rsame o) o (root_readlink fz cfg pfuel gh sysctl_ps rs root path).
Proof.
  unfold root_readlink, os. eapply bal_seqR; [apply Hres|reflexivity|]. intro link.
  apply bal_same, holding_same, bal_map_err_same, w_readlinkat_bal.
Qed.

Theorem root_create_bal root path ty o : bal (Rsame o) o (root_create fz cfg pfuel gh sysctl_ps rs root path ty).
Proof.
  unfold root_create, os. eapply bal_seqR; [apply parent_and_name_bal|reflexivity|].
  intros [dir name]. apply bal_same.
  destruct ty; try apply holding_same, bal_map_err_same.
  - apply w_mknodat_bal.
  - apply w_mkdirat_bal.
  - apply w_symlinkat_bal.
  - eapply bal_seq; [apply parent_and_name_bal|].
    intros [[olddir oldname]|e]; [|auto with owned].
    eapply bal_seq_same; [apply bal_map_err_same, w_linkat_bal|]. intro r.
    auto with owned.
  - apply w_mknodat_bal.
  - apply w_mknodat_bal.
  - apply w_mknodat_bal.
Qed.

Theorem root_create_file_bal root path fl mode o :
  bal (Rfd o) o (root_create_file fz cfg pfuel gh sysctl_ps rs root path fl mode).
Proof.
  unfold root_create_file, os. apply bal_if; [auto with owned|].
  eapply bal_seqR; [apply parent_and_name_bal|reflexivity|]. intros [dir name].
  apply holding_fd, bal_map_err_fd, w_openat_bal.
Qed.

Theorem root_remove_inode_bal root path isdir o :
  bal (Rsame o) o (root_remove_inode fz cfg pfuel gh sysctl_ps rs root path isdir).
Proof.
  unfold root_remove_inode, os. eapply bal_seqR; [apply parent_and_name_bal|reflexivity|]. intros [dir name].
  apply bal_same, holding_same, bal_map_err_same, w_unlinkat_bal.
Qed.

Theorem root_rename_bal root src dst rfl o :
  bal (Rsame o) o (root_rename fz cfg pfuel gh sysctl_ps rs root src dst rfl).
Proof.
  unfold root_rename, os. eapply bal_seqR; [apply parent_and_name_bal|reflexivity|]. intros [sd sn].
  eapply bal_seq; [apply parent_and_name_bal|].
  intros [[dd dn]|e]; [|auto with owned].
  eapply bal_seq_same; [apply bal_map_err_same, w_renameat2_bal|]. intro r.
  auto with owned.
Qed.

Lemma remove_inode_bal dirfd name o : bal (Rsame o) o (remove_inode fz dirfd name).
Proof.
  unfold remove_inode. eapply bal_seq_same; [apply w_unlinkat_bal|].
  intros [u|ue]; [auto with owned|].
  eapply bal_seq_same; [apply w_unlinkat_bal|].
  intros [u|re]; auto with owned.
Qed.

(* ra_entries owns the iterator descriptor dfd (on top of o) and closes it on every exit *)
Lemma ra_entries_bal rec g : forall dfd buf seen o,
  (forall n o', bal (Rsame o') o' (rec n)) ->
  bal (Rsame o) (dfd :: o) (ra_entries rec g dfd buf seen).
Proof.
  induction g as [|g' IH]; intros dfd buf seen o Hrec; cbn [ra_entries]; [constructor|].
  destruct buf as [|n rest]; cbn iota.
  - apply bal_neutral_call; [exact I|]. intro r. destruct (as_dents r) as [[|n l]|e].
    + auto with owned.
    + apply IH, Hrec.
    + apply bal_if; [apply IH, Hrec|].
      apply bal_if; auto with owned.
  - apply bal_if; [apply IH, Hrec|].
    eapply bal_seq_same; [apply Hrec|]. intro r. apply bal_same.
    destruct (ignore_enoent r); [apply IH, Hrec|auto with owned].
Qed.

Lemma ra_rounds_bal scan fin subdir g o :
  (forall dfd, bal (Rsame (subdir :: o)) (dfd :: subdir :: o) (scan dfd)) ->
  bal (Rsame o) (subdir :: o) fin ->
  bal (Rsame o) (subdir :: o) (ra_rounds scan fin subdir g).
Proof.
  intros Hscan Hfin. induction g as [|g' IH]; cbn [ra_rounds]; [constructor|].
  apply bal_neutral_call; [exact I|]. intro rf.
  assert (Hend : forall e, bal (@Rsame (result unit ekind) o) (subdir :: o)
                   (if N.eqb e ENOENT then fin else close subdir ;;; Ret (Err (OsError e)))).
  { intro e. apply bal_if; [exact Hfin|auto with owned]. }
  set (fl := z2n (as_num rf)). clearbody fl.
  set (rescan := Call (Openat subdir [DOT] _ 0) _).
  assert (Hre : bal (@Rsame (result unit ekind) o) (subdir :: o) rescan).
  { subst rescan. apply bal_open_call; [exact I|]. intro ro.
    destruct (as_fd ro) as [dfd|e]; [intros _|apply Hend].
    eapply bal_seq; [apply Hscan|]. intros [[|]|e]; [exact IH|exact Hfin|auto with owned]. }
  destruct rf; try exact Hre. apply Hend.
Qed.

Theorem remove_all_bal fuel : forall dirfd name o, bal (Rsame o) o (remove_all fz fuel dirfd name).
Proof.
  induction fuel as [|f IH]; intros dirfd name o; cbn [remove_all]; [constructor|].
  apply bal_if; [auto with owned|].
  apply bal_if; [auto with owned|].
  eapply bal_seq_same; [apply remove_inode_bal|]. intro r.
  destruct (ignore_enoent r); [auto with owned|].
  unfold os. eapply bal_seq; [apply bal_map_err_fd, w_openat_bal|].
  intros [subdir|e2]; [|apply bal_if; auto with owned].
  apply bal_same, ra_rounds_bal.
  - intro dfd. apply ra_entries_bal. intros n o'. apply IH.
  - eapply bal_seq_same; [apply remove_inode_bal|]. intro r3. auto with owned.
Qed.

Theorem root_remove_all_bal rfuel root path o :
  bal (Rsame o) o (root_remove_all fz cfg pfuel gh sysctl_ps rfuel rs root path).
Proof.
  unfold root_remove_all. eapply bal_seqR; [apply parent_and_name_bal|reflexivity|]. intros [dir name].
  apply bal_same, holding_same, remove_all_bal.
Qed.

Theorem root_mkdir_all_bal root path mode o :
  bal (Rfd o) o (root_mkdir_all fz cfg pfuel gh sysctl_ps rs root path mode).
Proof.
  unfold root_mkdir_all.
  (* the creation loop gets a name, so that the steps before it do not carry its body *)
  set (mk := fix mk (ps : list bytes) (current : Z) {struct ps} : prog (result Z ekind) := _).
  apply bal_if; [auto with owned|].
  apply bal_if; [auto with owned|].
  eapply bal_seqR; [apply Hresp|reflexivity|]. intro l.
  (* the lookup's descriptor becomes the handle, or is dropped with the error *)
  eapply (bal_seq (fun r : result (Z * option bytes) ekind => match r with Ok (h, _) => h :: o | Err _ => o end)).
  { destruct l as [fd|fd rem e]; [auto with owned|].
    destruct (match e with OsError n => N.eqb n ENOENT | _ => false end);
      [auto with owned|auto with owned]. }
  intros [[handle remaining]|e]; [|auto with owned].
  eapply bal_seq; [apply h_reopen_bal|]. intros [cur0|e].
  2: { eapply bal_seq_same; [apply frozen_bal|]. intro. auto with owned. }
  eapply close_then_p; [apply perm_swap|].
  set (parts := filter _ _). clearbody parts.
  apply bal_if; [auto with owned|].
  (* the creation loop owns [current] and hands on the last directory *)
  revert cur0. induction parts as [|part rest IH]; intro cur; unfold mk; [auto with owned|].
  apply bal_if; [auto with owned|]. fold mk.
  eapply bal_seq_same; [apply w_mkdirat_bal|]. intro r.
  destruct (match r with Ok _ => None | Err e => if N.eqb e EEXIST then None else Some e end);
    [auto with owned|].
  unfold os. eapply bal_seq; [apply bal_map_err_fd, w_openat_bal|].
  intros [next|e]; [|auto with owned].
  eapply close_then_p; [apply perm_swap|apply IH].
Qed.

End RootBal.
