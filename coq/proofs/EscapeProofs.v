(* EscapeProofs.v -- C02: where the emulated walk's results come from, for all kernel
   answers (hence for every attacker schedule).  The walk is parametric in the
   check run after a ".." step ([chk]) and in what is done when the component
   queue is empty ([fin]); do_resolve instantiates them with check_current and
   final_check. *)
From PV Require Import Discipline FaultProofs.

Definition not_complete (w : wres) : Prop :=
  match r_out w with Ok (Complete _) => False | _ => True end.
Definition chk_fails (chk : Z -> Z -> list bytes -> prog (result unit ekind)) : Prop :=
  forall c r e, rets (fun x => match x with Err _ => True | Ok _ => False end) (chk c r e).

Section Escape.
Variable fz : nat.
Variable ps : N.

Lemma bail_incomplete st next e : rets not_complete (bail st next e).
Proof.
  unfold bail. do 3 (apply rets_bind; intro). constructor. exact I.
Qed.

Lemma ret_partial_incomplete st next rem e : rets not_complete (ret_partial st next rem e).
Proof.
  unfold ret_partial. do 2 (apply rets_bind; intro). constructor. exact I.
Qed.

(* the walk never fabricates a completed lookup: every Complete result is produced by [fin] *)
Lemma walk_open_incomplete chk fin nosym nofollow follow inner remaining rest :
  (forall st, rets not_complete (fin st)) ->
  (forall go, follow = Some go -> forall st cs, rets not_complete (go st cs)) ->
  (forall st, rets not_complete (inner st rest)) ->
  forall st part, rets not_complete (walk_open fz ps chk fin nosym nofollow follow inner remaining rest st part).
Proof.
  intros Hfin Hgo Hinner st part. unfold walk_open.
  apply rets_if; [apply bail_incomplete|].
  apply rets_bind. intros [next|e]; [|apply ret_partial_incomplete].
  apply rets_bind. intros [u|e]; [|apply bail_incomplete].
  apply rets_bind. intros [meta|e]; [|apply bail_incomplete].
  apply rets_if.
  { apply rets_bind. intros [[stack' refs']|e]; [|apply bail_incomplete].
    apply rets_bind. intros st'. apply Hinner. }
  apply rets_if.
  { apply rets_bind. intros st'. apply Hfin. }
  apply rets_if; [apply ret_partial_incomplete|].
  apply rets_bind. intros [u2|e]; [|apply bail_incomplete].
  destruct follow as [go|]; [|apply ret_partial_incomplete].
  apply rets_bind. intros [target|e]; [|apply bail_incomplete].
  apply rets_bind. intros [[|]|e]; try apply bail_incomplete.
  destruct (match w_stack st with Some _ => _ | None => _ end) as [[stack' refs']|e]; [|apply bail_incomplete].
  cbn zeta. apply rets_bind. intros st2.
  apply rets_bind. intros _. eapply Hgo. reflexivity.
Qed.

Lemma walk_body_incomplete chk fin nosym nofollow follow :
  (forall st, rets not_complete (fin st)) ->
  (forall go, follow = Some go -> forall st cs, rets not_complete (go st cs)) ->
  forall st cs, rets not_complete (walk_body fz ps chk fin nosym nofollow follow st cs).
Proof.
  intros Hfin Hgo st cs. revert st. induction cs as [|part0 rest IH]; intro st; cbn [walk_body]; [apply Hfin|].
  pose proof (fun remaining => walk_open_incomplete chk fin nosym nofollow follow _ remaining rest Hfin Hgo IH) as Hopen.
  cbn zeta. do 2 (apply rets_if; [apply Hopen|]). apply rets_if; [|apply Hopen].
  destruct (w_exp st); [|apply Hopen].
  apply rets_bind. intros [[stack' refs']|e]; [|apply bail_incomplete].
  apply rets_bind. intros st'. apply IH.
Qed.

End Escape.
