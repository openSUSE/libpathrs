(* DynMkdirAll.v -- C12 end to end on the dynamic kernel, kernel (openat2) backend:
   RootRef::mkdir_all = the partial lookup (a pure function of the tree: the first ancestor of
   the path that the kernel's in-root walk resolves, [kpartial]) followed by the creation loop
   (the pure function [mk_spec], DynMkdir.v).  With DynMkdir.mk_spec_post: the resulting tree
   is the old one plus new directories only -- also when the call fails --, and on success every
   component exists afterwards and the handle is open on the directory at the end of the chain. *)
From PV Require Import Dyn PathProofs StaticProofs StaticBal EffectProofs BeneathProofs StaticBackends StaticReopen DynProofs DynMkdir.
From PV Require DynEffects.

Lemma rindex_slash_limit inner limit idx :
  rindex_slash (match limit with None => inner | Some i => firstn i inner end) = Some idx ->
  (idx < length inner)%nat /\ nth idx inner 0 = SLASH.
Proof.
  intro Er. destruct (rindex_slash_some _ _ Er) as (Hlt & Hnth & _). destruct limit as [i|]; [|split; assumption].
  rewrite firstn_length in Hlt. split; [exact (Nat.lt_le_trans _ _ _ Hlt (Nat.le_min_r _ _))|].
  rewrite <- Hnth. transitivity (nth idx (firstn i inner ++ skipn i inner) 0); [rewrite firstn_skipn; reflexivity|].
  apply app_nth1. rewrite firstn_length. exact Hlt.
Qed.

(* every item of the ancestors iterator splits the path at one of its slashes, or is ("." , whole path) *)
Lemma anc_iter_split inner : forall fuel limit a r, In (a, r) (anc_iter fuel inner limit) ->
  (exists pre rest, inner = pre ++ SLASH :: rest /\ a = (if is_nil pre then [SLASH] else pre) /\
                    r = (if is_nil rest then None else Some rest)) \/
  (a = [DOT] /\ r = (if is_nil inner then None else Some inner)).
Proof.
  induction fuel as [|f IH]; intros limit a r Hin; cbn [anc_iter] in Hin; [destruct Hin|].
  revert Hin. cbv zeta. destruct (rindex_slash _) as [idx|] eqn:Er; intro Hin.
  - destruct Hin as [E|Hin].
    + injection E as <- <-. left. destruct (rindex_slash_limit _ _ _ Er) as [Hlt Hnth].
      pose proof (skipn_nth_cons 0 inner idx Hlt) as Hsk. rewrite Hnth in Hsk.
      exists (firstn idx inner), (skipn (S idx) inner). split; [|split; [reflexivity|]].
      * rewrite <- Hsk. symmetry. apply firstn_skipn.
      * rewrite Hsk. cbn [beq tl]. rewrite N.eqb_refl. destruct (skipn (S idx) inner); reflexivity.
    + destruct (anc_end _); [destruct Hin|]. exact (IH _ _ _ Hin).
  - destruct Hin as [E|[]]. injection E as <- <-. right. split; reflexivity.
Qed.

Lemma partial_ancestors_no_nul p a r : has_nul p = false -> In (a, r) (partial_ancestors p) ->
  has_nul a = false /\ (forall x, r = Some x -> has_nul x = false).
Proof.
  intros Hn Hin. destruct (anc_iter_split p _ _ _ _ Hin) as [(pre & rest & Hp & -> & ->)|[ -> -> ]].
  - unfold has_nul in Hn. rewrite Hp, has_byte_app in Hn. apply orb_false_iff in Hn. destruct Hn as [Hpre Hrest]. split.
    + destruct (is_nil pre); [reflexivity|exact Hpre].
    + intros x Hx. destruct (is_nil rest); [discriminate|]. inversion Hx; subst. exact Hrest.
  - split; [reflexivity|]. intros x Hx. destruct (is_nil p); [discriminate|]. inversion Hx; subst. exact Hn.
Qed.

Definition kw (s : fs) (p : bytes) (nosym : bool) : nat + N :=
  match FSModel.kwalk s p false nosym with
  | FSModel.WOk o => inl o
  | FSModel.WErr e => inr e
  | FSModel.WBudget => inr ELOOP
  end.

Lemma kw_inl s p nosym o : kw s p nosym = inl o -> FSModel.kwalk s p false nosym = FSModel.WOk o.
Proof. unfold kw. destruct (FSModel.kwalk s p false nosym); intro H; inversion H; reflexivity. Qed.

Inductive kpart := KComplete (o : nat) | KPartial (o : nat) (rem : bytes) (last : N) | KFail (e : N).

Fixpoint kpartial_go (s : fs) (nosym : bool) (anc : list (bytes * option bytes)) (last : N) : kpart :=
  match anc with
  | [] => KFail last
  | (p, rem) :: rest =>
      match kw s p nosym with
      | inl o => KPartial o (match rem with Some x => x | None => [] end) last
      | inr e => kpartial_go s nosym rest e
      end
  end.

Definition kpartial (s : fs) (path : bytes) (nosym : bool) : kpart :=
  match kw s path nosym with
  | inl o => KComplete o
  | inr e0 => kpartial_go s nosym (partial_ancestors path) e0
  end.

Section KP.
Variable s : fs.
Variable rp : bytes.
Variable fz : nat.
Hypothesis Hfz : fz <> 0%nat.
Hypothesis Hcl : closed s.
Notation run := (run s rp).

Lemma run_k_resolve_kw t root p rflags :
  tget t root = Some ROOT -> has_nul p = false ->
  run t (k_resolve fz true root p rflags false) =
  match kw s p (has (N.lor OPENAT2_RESOLVE_RESOLVE rflags) RESOLVE_NO_SYMLINKS) with
  | inl o => Done ((fresh t, o) :: t) (Ok (fresh t))
  | inr e => Done t (Err (OsError e))
  end.
Proof.
  intros Hr Hn. pose proof (run_k_resolve s rp fz Hfz Hcl t root p rflags false Hr Hn) as H.
  unfold kw. destruct (FSModel.kwalk s p false _); exact H.
Qed.

(* the errnos of a walk are never the one of a safety violation *)
Lemma walk_not_safety p nosym e : kw s p nosym = inr e -> is_safety_violation (OsError e) = false.
Proof.
  unfold kw. destruct (FSModel.kwalk s p false nosym) as [o|n|] eqn:E; intro H; inversion H; subst.
  - destruct (FSProofs.kwalk_errno s p false nosym e E) as [ -> | [ -> | [ -> | -> ] ] ]; reflexivity.
  - reflexivity.
Qed.

Lemma kpartial_go_not_complete nosym : forall anc last o, kpartial_go s nosym anc last <> KComplete o.
Proof.
  induction anc as [|[p r] rest IH]; intros last o; cbn [kpartial_go]; [discriminate|].
  destruct (kw s p nosym); [discriminate|apply IH].
Qed.

Theorem run_k_resolve_partial t root path rflags (nosym := has (N.lor OPENAT2_RESOLVE_RESOLVE rflags) RESOLVE_NO_SYMLINKS) :
  tget t root = Some ROOT -> has_nul path = false ->
  run t (k_resolve_partial fz true root path rflags false) =
  match kpartial s path nosym with
  | KComplete o => Done ((fresh t, o) :: t) (Ok (Complete (fresh t)))
  | KPartial o rem l => Done ((fresh t, o) :: t) (Ok (Partial (fresh t) rem (OsError l)))
  | KFail e => Done t (Err (OsError e))
  end.
Proof.
  intros Hr Hn. unfold k_resolve_partial, kpartial. rewrite (run_bind s rp).
  rewrite (run_k_resolve_kw t root path rflags Hr Hn). fold nosym.
  destruct (kw s path nosym) as [o|e0] eqn:Ek; [reflexivity|].
  (* down the ancestors: each is NUL-free, and the errno carried along is never that of a safety violation *)
  pose proof (fun a r Hin => proj1 (partial_ancestors_no_nul path a r Hn Hin)) as Hna. apply walk_not_safety in Ek.
  revert e0 Ek. induction (partial_ancestors path) as [|[p rem] rest IH]; intros last Hs; [reflexivity|].
  cbn [kpartial_go]. rewrite Hs, (run_bind s rp), (run_k_resolve_kw t root p rflags Hr (Hna p rem (or_introl eq_refl))). fold nosym.
  destruct (kw s p nosym) as [o|e] eqn:Ek; [reflexivity|].
  exact (IH (fun a r Hin => Hna a r (or_intror Hin)) e (walk_not_safety _ _ _ Ek)).
Qed.

(* what a partial answer means: the first ancestor that resolves, with what is left of the path *)
Lemma kpartial_go_in nosym : forall anc last o rem l, kpartial_go s nosym anc last = KPartial o rem l ->
  exists a r, In (a, r) anc /\ kw s a nosym = inl o /\ rem = match r with Some x => x | None => [] end.
Proof.
  induction anc as [|[p r] rest IH]; intros last o rem l H; cbn [kpartial_go] in H; [discriminate|].
  destruct (kw s p nosym) as [o'|e] eqn:Ek.
  - inversion H; subst. exists p, r. split; [left; reflexivity|split; [exact Ek|reflexivity]].
  - destruct (IH _ _ _ _ H) as (a & r' & Hin & Hk & Hr). exists a, r'. split; [right; exact Hin|split; assumption].
Qed.

Lemma kpartial_facts nosym path o remaining : has_nul path = false ->
  ((kpartial s path nosym = KComplete o /\ remaining = None) \/
   (exists rm, kpartial s path nosym = KPartial o rm ENOENT /\ remaining = Some rm)) ->
  (o < PB s)%nat /\ (forall x, remaining = Some x -> has_nul x = false).
Proof.
  intros Hnul Hpart.
  pose proof (fun p o' H => DynEffects.kwalk_lt s p false nosym o' Hcl (kw_inl s p nosym o' H)) as Hlt.
  unfold kpartial in Hpart. destruct (kw s path nosym) as [o'|e] eqn:E.
  - destruct Hpart as [[Hp ->]|(rm & Hp & _)]; [|discriminate]. inversion Hp; subst. split; [exact (Hlt _ _ E)|discriminate].
  - destruct Hpart as [[Hp _]|(rm & Hp & ->)]; [exfalso; exact (kpartial_go_not_complete _ _ _ _ Hp)|].
    destruct (kpartial_go_in _ _ _ _ _ _ Hp) as (a & r & Hin & Hk' & Hr).
    split; [exact (Hlt _ _ Hk')|]. intros x Ex. inversion Ex; subst x. rewrite Hr.
    destruct r as [x|]; [|reflexivity]. exact (proj2 (partial_ancestors_no_nul path a (Some x) Hnul Hin) x eq_refl).
Qed.

End KP.

Definition parts_of (remaining : option bytes) : list bytes :=
  filter (fun p => negb (noop_part p)) (match remaining with Some rm => raw_components rm | None => [] end).

Lemma parts_plain remaining :
  (forall x, remaining = Some x -> has_nul x = false) -> existsb is_dotdot (parts_of remaining) = false ->
  Forall (fun p => Dyn.plain p = true) (parts_of remaining).
Proof.
  intros Hn Hdd. unfold parts_of in *. destruct remaining as [rm|]; [|constructor].
  pose proof (raw_components_no_slash rm) as Hs. pose proof (raw_components_no_nul rm (Hn rm eq_refl)) as Hnul.
  induction (raw_components rm) as [|c cs IH]; cbn [filter] in *; [constructor|].
  inversion Hs as [|? ? Hs1 Hs2]; subst. inversion Hnul as [|? ? Hn1 Hn2]; subst.
  destruct (noop_part c) eqn:Enp; cbn [negb] in *; [apply IH; assumption|].
  cbn [existsb] in Hdd. apply orb_false_iff in Hdd. destruct Hdd as [Hd1 Hd2].
  constructor; [|apply IH; assumption].
  unfold Dyn.plain, noop_part in *. apply orb_false_iff in Enp. destruct Enp as [E1 E2].
  rewrite E1, E2, Hd1, Hs1, Hn1. reflexivity.
Qed.

Section ALL.
Variable s : fs.
Variable rp : bytes.
Variables fz pfuel : nat.
Variable gh : phandle.
Variable ps : N.
Variable rs : resolver.
Hypothesis Hfz : fz <> 0%nat.
Hypothesis Hc2 : closed2 s.
Hypothesis Hmnt : ph_mnt gh = Some PROC_MNT.
Hypothesis Ho2 : ph_openat2 gh = true.
Hypothesis Hk : rs_kernel rs = true.
Notation drun := (Dyn.drun rp).
Notation nosym := (has (N.lor OPENAT2_RESOLVE_RESOLVE (rs_flags rs)) RESOLVE_NO_SYMLINKS).

Lemma reopen_dir_flags_ok : (intersects (without MKDIR_ALL_REOPEN_FLAGS REOPEN_REMOVED) OPEN_FOLLOW_REFUSED
                             || has_nz (without MKDIR_ALL_REOPEN_FLAGS REOPEN_REMOVED) OPEN_FOLLOW_REFUSED_CONTAINS) = false.
Proof. vm_compute. reflexivity. Qed.

(* Everything after the partial lookup does not depend on the backend: whatever [r_resolve_partial] -- emulated or
   kernel -- returned on the static kernel (a handle [h] on a directory [o] and the unresolved rest, error ENOENT),
   mkdir_all is the re-open of [h] (C09's theorem, carried over by the bridge), [h] closed, then the loop from the
   new descriptor along the rest. *)
Theorem mkdir_all_after_lookup t root path mode t1 h o remaining exp :
  N.ldiff mode MKDIR_ALL_MASK1 = 0 -> N.ldiff mode MKDIR_ALL_MASK2 = 0 ->
  run s rp t (r_resolve_partial fz true (S pfuel) gh ps rs root path false) =
    Done t1 (Ok (match remaining with None => Complete h | Some rm => Partial h rm (OsError ENOENT) end)) ->
  tget t1 (ph_fd gh) = Some (PB s) -> tget t1 h = Some o -> (o < PB s)%nat ->
  is_dir s o = true -> find_path s o = Some exp -> N.leb READLINK_BUF (N.of_nat (length (render rp exp))) = false ->
  existsb is_dotdot (parts_of remaining) = false ->
  exists nfd, tget (tdel ((nfd, o) :: t1) h) nfd = Some o /\
    drun {| ds := s; dt := t; dseen := [] |} (root_mkdir_all fz true (S pfuel) gh ps rs root path mode) =
    drun {| ds := s; dt := tdel ((nfd, o) :: t1) h; dseen := [] |} (mk_parts fz mode (parts_of remaining) nfd).
Proof.
  intros Hm1 Hm2 Hlook Hproc Hh Holt Hdir Hpath Hshort Hdd.
  assert (Hod : obj_is_dir s o = true).
  { unfold obj_is_dir. destruct (Nat.leb_spec (PB s) o) as [Hge|_]; [exfalso; exact (proj1 (Nat.lt_nge _ _) Holt Hge)|exact Hdir]. }
  destruct (run_reopen_strong s rp fz Hfz gh Hmnt Ho2 pfuel t1 h o exp MKDIR_ALL_REOPEN_FLAGS Hproc Hh Holt (dir_no_body _ _ Hdir) Hpath Hshort
              reopen_dir_flags_ok ltac:(rewrite Hod; apply andb_false_r)) as (nfd & Hrun & Hfresh & Hpos).
  exists nfd. split.
  - assert (Hne : nfd <> h).
    { intro E. subst nfd. unfold tget in Hh. destruct (Z.ltb h 0); [discriminate|]. rewrite Hfresh in Hh. discriminate. }
    rewrite (tget_del_other _ _ _ Hne). unfold tget.
    destruct (Z.ltb_spec nfd 0) as [Hneg|_]; [exfalso; exact (proj1 (Z.le_ngt _ _) Hpos Hneg)|]. cbn [tfind]. rewrite Z.eqb_refl. reflexivity.
  - unfold root_mkdir_all. fold (mk_parts fz mode). rewrite Hm1, Hm2.
    change (negb (N.eqb 0 0)) with false. cbv iota.
    rewrite drun_bindR, (drun_static rp _ (r_resolve_partial_ne fz true (S pfuel) gh ps rs root path false) s t _ _ Hlook).
    (* the lookup's answer as (handle, rest) *)
    assert (Hconv : forall K : result (Z * option bytes) ekind -> prog (result Z ekind),
      drun {| ds := s; dt := t1; dseen := [] |}
        (r <- match (match remaining with None => Complete h | Some rm => Partial h rm (OsError ENOENT) end) with
              | Complete fd => Ret (Ok (fd, None))
              | Partial fd remaining e =>
                  if (match e with OsError n => N.eqb n ENOENT | _ => false end) then Ret (Ok (fd, Some remaining)) else close fd ;;; Ret (Err e)
              end ;; K r) = drun {| ds := s; dt := t1; dseen := [] |} (K (Ok (h, remaining))))
      by (intro K; destruct remaining; reflexivity).
    rewrite Hconv. cbv beta iota.
    rewrite drun_bind. unfold h_reopen. rewrite (drun_static rp _ (reopen_ne fz true (S pfuel) gh h MKDIR_ALL_REOPEN_FLAGS) s t1 _ _ Hrun).
    cbv beta iota. rewrite drun_bind, drun_close_any. cbv zeta. fold (parts_of remaining). rewrite Hdd. reflexivity.
Qed.

Theorem mkdir_all_kernel t root path mode o remaining exp :
  tget t root = Some ROOT -> tget t (ph_fd gh) = Some (PB s) -> has_nul path = false ->
  N.ldiff mode MKDIR_ALL_MASK1 = 0 -> N.ldiff mode MKDIR_ALL_MASK2 = 0 ->
  (* the partial lookup: the whole path resolves, or its first resolving ancestor with ENOENT for the next longer one *)
  ((kpartial s path nosym = KComplete o /\ remaining = None) \/
   (exists rm, kpartial s path nosym = KPartial o rm ENOENT /\ remaining = Some rm)) ->
  (* that object is a directory whose rendering fits the readlink buffer (the premises of C09's reopen theorem) *)
  is_dir s o = true -> find_path s o = Some exp -> N.leb READLINK_BUF (N.of_nat (length (render rp exp))) = false ->
  existsb is_dotdot (parts_of remaining) = false ->
  exists t',
    match snd (mk_spec s o (parts_of remaining)) with
    | inl c => exists fd,
        drun {| ds := s; dt := t; dseen := [] |} (root_mkdir_all fz true (S pfuel) gh ps rs root path mode) =
          DDone {| ds := fst (mk_spec s o (parts_of remaining)); dt := t'; dseen := [] |} (Ok fd) /\ tget t' fd = Some c /\
        (forall x, indom t' x -> x = fd \/ indom t x)
    | inr e =>
        drun {| ds := s; dt := t; dseen := [] |} (root_mkdir_all fz true (S pfuel) gh ps rs root path mode) =
          DDone {| ds := fst (mk_spec s o (parts_of remaining)); dt := t'; dseen := [] |} (Err (OsError e)) /\
        (forall x, indom t' x -> indom t x)
    end.
Proof.
  intros Hroot Hproc Hnul Hm1 Hm2 Hpart Hdir Hpath Hshort Hdd.
  destruct (kpartial_facts s (proj1 Hc2) _ path o remaining Hnul Hpart) as [Holt Hnulr].
  assert (Hlook : run s rp t (r_resolve_partial fz true (S pfuel) gh ps rs root path false) =
                  Done ((fresh t, o) :: t) (Ok (match remaining with None => Complete (fresh t) | Some rm => Partial (fresh t) rm (OsError ENOENT) end))).
  { unfold r_resolve_partial. rewrite Hk, (run_k_resolve_partial s rp fz Hfz (proj1 Hc2) t root path (rs_flags rs) Hroot Hnul).
    destruct Hpart as [[-> ->]|(rm & -> & ->)]; reflexivity. }
  destruct (mkdir_all_after_lookup t root path mode _ _ o remaining exp Hm1 Hm2 Hlook
              (tget_new_old _ _ _ _ Hproc) (tget_new _ _) Holt Hdir Hpath Hshort Hdd) as (nfd & Hcur & Hrun0).
  destruct (mk_spec s o (parts_of remaining)) as [s' r] eqn:E. cbn [fst snd].
  destruct (mk_parts_run rp fz Hfz mode _ s _ nfd o s' r Hc2 Hcur Holt (parts_plain remaining Hnulr Hdd) E) as (t' & _ & Hres).
  exists t'. rewrite Hrun0.
  (* the lookup's own descriptor is closed again: what is open at the end was open at the start *)
  assert (Hd : forall x, indom (tdel ((nfd, o) :: (fresh t, o) :: t) (fresh t)) x -> x <> nfd -> indom t x).
  { intros x Hx Hxn. destruct (indom_del_cons _ _ _ _ _ Hx Hxn) as [Hin Hne]. apply indom_cons in Hin. destruct Hin as [ -> |Hin]; [contradiction|exact Hin]. }
  destruct r as [c|e].
  - destruct Hres as (fd & Hrun & Hfd & _ & Hdom & _). exists fd. split; [exact Hrun|]. split; [exact Hfd|].
    intros x Hx. destruct (Hdom x Hx) as [ -> |[Hin Hxn]]; [left; reflexivity|right; exact (Hd x Hin Hxn)].
  - destruct Hres as (Hrun & Hdom). split; [exact Hrun|]. intros x Hx. destruct (Hdom x Hx) as [Hin Hxn]. exact (Hd x Hin Hxn).
Qed.

End ALL.
