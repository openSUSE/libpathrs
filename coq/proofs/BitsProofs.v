(* BitsProofs.v -- flag-set reasoning: [has], [intersects], N.ldiff (which is [without]). *)
From PV Require Import LinuxAbi.
From Coq Require Import Bool.

Lemma has_spec x c : has x c = true <-> (forall i, N.testbit c i = true -> N.testbit x i = true).
Proof.
  unfold has. rewrite N.eqb_eq. split.
  - intros H i Hc. rewrite <- H in Hc. rewrite N.land_spec in Hc.
    apply andb_true_iff in Hc. tauto.
  - intros H. apply N.bits_inj. intro i. rewrite N.land_spec.
    destruct (N.testbit c i) eqn:E.
    + rewrite (H i E). reflexivity.
    + apply andb_false_r.
Qed.

Lemma has_lor_l a b' c : has a c = true -> has (N.lor a b') c = true.
Proof.
  rewrite !has_spec. intros H i Hc. rewrite N.lor_spec, (H i Hc). reflexivity.
Qed.

Lemma has_lor_r a b' c : has b' c = true -> has (N.lor a b') c = true.
Proof.
  rewrite !has_spec. intros H i Hc. rewrite N.lor_spec, (H i Hc). apply orb_true_r.
Qed.

Lemma has_refl c : has c c = true.
Proof. apply has_spec. auto. Qed.

Lemma has_trans a b' c : has a b' = true -> has b' c = true -> has a c = true.
Proof. rewrite !has_spec. auto. Qed.

Lemma has_land_mask a m c : has a c = true -> has m c = true -> has (N.land a m) c = true.
Proof.
  rewrite !has_spec. intros Ha Hm i Hc. rewrite N.land_spec, (Ha i Hc), (Hm i Hc). reflexivity.
Qed.

(* a bit that is set in [c] and cleared by ldiff cannot be present *)
Lemma has_ldiff_false a c : c <> 0 -> has (N.ldiff a c) c = false.
Proof.
  intros Hc. destruct (has (N.ldiff a c) c) eqn:E; [|reflexivity].
  exfalso. apply Hc. apply N.bits_inj_0. intro i.
  destruct (N.testbit c i) eqn:Ei; [|reflexivity].
  rewrite has_spec in E. specialize (E i Ei).
  rewrite N.ldiff_spec, Ei in E. rewrite andb_false_r in E. discriminate.
Qed.

Lemma has_ldiff_other a c d : N.land c d = 0 -> has a d = true -> has (N.ldiff a c) d = true.
Proof.
  intros Hcd. rewrite !has_spec. intros H i Hd.
  rewrite N.ldiff_spec, (H i Hd). cbn.
  destruct (N.testbit c i) eqn:Ec; [|reflexivity].
  assert (N.testbit (N.land c d) i = true) by (rewrite N.land_spec, Ec, Hd; reflexivity).
  rewrite Hcd in H0. rewrite N.bits_0 in H0. discriminate.
Qed.

Lemma intersects_false_has a m c : c <> 0 -> has m c = true -> intersects a m = false -> has a c = false.
Proof.
  unfold intersects. intros Hc Hm Hi. apply negb_false_iff, N.eqb_eq in Hi.
  destruct (has a c) eqn:E; [|reflexivity]. exfalso. apply Hc.
  apply N.bits_inj_0. intro i. destruct (N.testbit c i) eqn:Ei; [|reflexivity].
  rewrite has_spec in E, Hm.
  assert (N.testbit (N.land a m) i = true) by (rewrite N.land_spec, (E i Ei), (Hm i Ei); reflexivity).
  rewrite Hi, N.bits_0 in H. discriminate.
Qed.

Lemma intersects_of_has a m c : c <> 0 -> has m c = true -> has a c = true -> intersects a m = true.
Proof.
  intros Hc Hm Ha. destruct (intersects a m) eqn:E; [reflexivity|].
  rewrite (intersects_false_has a m c Hc Hm E) in Ha. discriminate.
Qed.

Lemma intersects_lor_l a x m : intersects a m = true -> intersects (N.lor a x) m = true.
Proof.
  unfold intersects. rewrite !negb_true_iff, !N.eqb_neq. intros H E. apply H.
  rewrite N.land_lor_distr_l in E. apply N.lor_eq_0_l in E. exact E.
Qed.

Lemma has_bit x i : has x (2 ^ i) = N.testbit x i.
Proof.
  apply eq_true_iff_eq. rewrite has_spec. split.
  - intro H. apply H, N.pow2_bits_true.
  - intros H j Hj. rewrite N.pow2_bits_eqb in Hj. apply N.eqb_eq in Hj. subst j. exact H.
Qed.

Lemma has_lor_bit x y i : has (N.lor x y) (2 ^ i) = has x (2 ^ i) || has y (2 ^ i).
Proof. rewrite !has_bit. apply N.lor_spec. Qed.
