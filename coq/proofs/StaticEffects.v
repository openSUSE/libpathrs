(* StaticEffects.v -- C14 / C03: which call a single-entry operation makes, and on what.
   [reaches t p c t']: executing p on the static kernel from table t arrives at the call
   c with table t'.  For the emulated backend on any well-formed tree, an operation that
   resolves the parent of its path and goes on with (descriptor, name) arrives at the first
   call of what it goes on with, made on a descriptor open on the object the in-root walk
   of the parent path ends on, with path_split's last component as the name.  (That no
   other call before or after it changes the tree is C03's statement, for all answers.) *)
From PV Require Import Static StaticProofs FdBalance RootBal OpathBal StaticBal.
From Coq Require Import Permutation.

Section EF.
Variable s : fs.
Variable rp : bytes.

Inductive reaches {A} : fdt -> prog A -> call -> fdt -> Prop :=
| reach_here t c k : reaches t (Call c k) c t
| reach_step t c k c' t' : reaches (fst (answer s rp t c)) (k (snd (answer s rp t c))) c' t' -> reaches t (Call c k) c' t'.

Lemma reaches_bind_done {A B} (p : prog A) (f : A -> prog B) : forall t t1 a c t',
  run s rp t p = Done t1 a -> reaches t1 (f a) c t' -> reaches t (bind p f) c t'.
Proof.
  induction p as [a0|c0 k IH| |]; intros t t1 a c t' Hrun Hr; cbn [bind Static.run] in *.
  - inversion Hrun; subst. exact Hr.
  - destruct (answer s rp t c0) as [t2 r] eqn:E. apply reach_step. rewrite E. cbn [fst snd]. eapply IH; eassumption.
  - discriminate.
  - discriminate.
Qed.

(* the first call of a program *)
Definition head {A} (p : prog A) : option call := match p with Call c _ => Some c | _ => None end.

Lemma reaches_head {A} t (p : prog A) c : head p = Some c -> reaches t p c t.
Proof. destruct p; try discriminate. intro H. inversion H. apply reach_here. Qed.

(* the calls that change the tree *)
Definition changes_tree (c : call) : bool :=
  match c with
  | Mkdirat _ _ _ | Mknodat _ _ _ _ | Unlinkat _ _ _ | Linkat _ _ _ _ _ | Symlinkat _ _ _
  | Renameat _ _ _ _ | Renameat2 _ _ _ _ _ => true
  | Openat _ _ fl _ => has fl O_CREAT
  | Openat2 _ _ fl _ _ => has fl O_CREAT
  | _ => false
  end.

End EF.

Lemma head_bind {A B} (p : prog A) (f : A -> prog B) c : head p = Some c -> head (bind p f) = Some c.
Proof. destruct p; try discriminate. exact (fun H => H). Qed.

Lemma head_os_bind {A B} (p : prog (result A N)) (f : result A ekind -> prog B) c :
  head p = Some c -> head (bind (os p) f) = Some c.
Proof. intro H. apply head_bind. unfold os, map_err. apply head_bind, H. Qed.

(* the wrappers of syscalls.rs make their call once descriptors and paths have passed their checks *)
Lemma head_simple1 {A} fz fd path c (dec : resp -> result A N) :
  valid_fd fd = true -> has_nul path = false -> head (simple1 fz fd path c dec) = Some c.
Proof. intros Hv Hn. unfold simple1, rustix_path. rewrite Hv, Hn. reflexivity. Qed.

Lemma head_w_openat fz fd path fl m : valid_fd fd = true -> has_nul path = false ->
  head (w_openat fz fd path fl m) =
  Some (Openat fd path (N.lor (N.lor (N.lor fl OPENAT_NOFOLLOW_FORCED) OPENAT_FORCED) O_LARGEFILE) (N.land m MODE_BITS)).
Proof. intros Hv Hn. unfold w_openat, w_openat_follow, rustix_path. rewrite Hv, Hn. reflexivity. Qed.

Lemma head_w_symlinkat fz target fd path : valid_fd fd = true -> has_nul target = false -> has_nul path = false ->
  head (w_symlinkat fz target fd path) = Some (Symlinkat target fd path).
Proof. intros Hv Ht Hn. unfold w_symlinkat. rewrite Hv, Ht, Hn. reflexivity. Qed.

Lemma head_two_fd fz ofd opath nfd npath c :
  valid_fd ofd = true -> valid_fd nfd = true -> has_nul opath = false -> has_nul npath = false ->
  head (two_fd fz ofd opath nfd npath c) = Some c.
Proof. intros Ho Hn Hop Hnp. unfold two_fd. rewrite Ho, Hn, Hop, Hnp. reflexivity. Qed.

Section OPS.
Variable s : fs.
Variable rp : bytes.
Variable F : list (Z * nat).
Variable df : nat -> nat.
Variables fz pfuel : nat.
Variable o2 : bool.
Variable gh : phandle.
Variable ps : N.
Hypothesis Hcl : closed s.
Hypothesis Hfz : fz <> 0%nat.
Hypothesis Hchk : chk_static_ok s rp F (check_current fz o2 pfuel gh).
Hypothesis Hwf : FSProofs.wf s df.
Hypothesis Hl : links_ok s.
Variable rs : resolver.
Hypothesis Hk : rs_kernel rs = false.

Notation nosym := (has (rs_flags rs) RESOLVE_NO_SYMLINKS).

(* every operation of the form  parent_and_name ;; K : it gets to the first call of K, and K
   is handed a descriptor open on the object the walk of the parent path ends on *)
Theorem reaches_parent {B} (K : Z * bytes -> prog (result B ekind)) (c : Z -> call) t root path dirp name o :
  path_split path = Some (Ok (dirp, Some name)) -> has_nul dirp = false ->
  Frame s F t -> tget t root = Some ROOT ->
  FSModel.ewalk s dirp false nosym = FSModel.WOk o ->
  (forall dir, valid_fd dir = true -> head (K (dir, name)) = Some (c dir)) ->
  exists t1 dir, tget t1 dir = Some o /\
    reaches s rp t (dn <-? parent_and_name fz o2 pfuel gh ps rs root path ;; K dn) (c dir) t1.
Proof.
  intros Hsplit Hnul Hfr Hroot Hw HK.
  pose proof (parent_and_name_static s rp F fz o2 pfuel gh ps df rs t root path dirp name Hcl Hfz Hchk Hwf Hl Hk Hsplit Hnul Hfr Hroot) as H.
  rewrite Hw in H. destruct H as (t1 & dir & Hrun & Hdir).
  exists t1, dir. split; [exact Hdir|]. unfold bindR.
  eapply reaches_bind_done; [exact Hrun|]. apply reaches_head, HK, (tget_valid _ _ _ Hdir).
Qed.

(* the mode handed to mknodat: the inode kind comes from the InodeType alone *)
Definition node_type (ty : inode_type) : N :=
  match ty with
  | IFile _ => S_IFREG | IFifo _ => S_IFIFO | ICharDev _ _ => S_IFCHR | IBlockDev _ _ => S_IFBLK
  | _ => 0
  end.
Definition node_raw (ty : inode_type) : N :=
  match ty with IFile m | IFifo m | ICharDev m _ | IBlockDev m _ => m | _ => 0 end.
Definition node_dev (ty : inode_type) : N :=
  match ty with ICharDev _ d | IBlockDev _ d => d | _ => 0 end.

Lemma type_perm_split k raw : N.land k S_IFMT = k ->
  N.lor (N.land (N.lor k (perm raw)) S_IFMT) (N.land (N.lor k (perm raw)) MODE_BITS) = N.lor k (N.land raw MODE_BITS).
Proof.
  intro Hkm. unfold perm, without. apply N.bits_inj. intro n.
  assert (Hkn : N.testbit k n = true -> N.testbit S_IFMT n = true).
  { intro H. rewrite <- Hkm in H. rewrite N.land_spec in H. apply andb_true_iff in H. apply H. }
  assert (Hdisj : N.testbit S_IFMT n = true -> N.testbit MODE_BITS n = false).
  { intro H. assert (E : N.land S_IFMT MODE_BITS = 0) by reflexivity.
    pose proof (f_equal (fun x => N.testbit x n) E) as E'. cbn beta in E'. rewrite N.land_spec, H, N.bits_0 in E'. exact E'. }
  rewrite !N.lor_spec, !N.land_spec, !N.lor_spec, N.ldiff_spec.
  destruct (N.testbit k n) eqn:Ek, (N.testbit S_IFMT n) eqn:Em, (N.testbit MODE_BITS n) eqn:Eb, (N.testbit raw n);
    try reflexivity; try (specialize (Hkn eq_refl); discriminate); try (specialize (Hdisj eq_refl); discriminate).
Qed.

(* create(path, File / Fifo / CharacterDevice / BlockDevice): the mknodat call, exactly:
   type bits = the InodeType's, permission bits = the caller's mode & 07777 (whatever
   S_IFMT bits that mode word carries are dropped), device number as given *)
Theorem create_node_reaches_exact t root path dirp name o ty :
  node_type ty <> 0 ->
  path_split path = Some (Ok (dirp, Some name)) -> has_nul dirp = false -> has_nul name = false ->
  Frame s F t -> tget t root = Some ROOT ->
  FSModel.ewalk s dirp false nosym = FSModel.WOk o ->
  exists t1 dir, tget t1 dir = Some o /\
    reaches s rp t (root_create fz o2 pfuel gh ps rs root path ty)
            (Mknodat dir name (N.lor (node_type ty) (N.land (node_raw ty) MODE_BITS)) (node_dev ty)) t1.
Proof.
  intros Hty Hsplit Hnul Hnn Hfr Hroot Hw. unfold root_create.
  apply (reaches_parent _ (fun dir => Mknodat dir name (N.lor (node_type ty) (N.land (node_raw ty) MODE_BITS)) (node_dev ty))
           t root path dirp name o Hsplit Hnul Hfr Hroot Hw).
  intros dir Hv.
  destruct ty as [m|m|tg|tg|m|m d|m d]; cbn [node_type] in Hty; try (exfalso; apply Hty; reflexivity);
    cbn [node_type node_raw node_dev]; apply head_os_bind; unfold w_mknodat;
    rewrite (type_perm_split _ m eq_refl); apply head_simple1; assumption.
Qed.

Lemma tget_indom t fd ob : tget t fd = Some ob -> indom t fd.
Proof. unfold tget, indom. destruct (Z.ltb fd 0); [discriminate|]. intros H E. rewrite E in H. discriminate. Qed.

Lemma tget_keep t t1 fd ob : tget t fd = Some ob -> (forall x, indom t x -> tfind t1 x = tfind t x) -> tget t1 fd = Some ob.
Proof.
  intros H Hkp. pose proof (Hkp fd (tget_indom _ _ _ H)) as E. unfold tget in *. destruct (Z.ltb fd 0); [discriminate|].
  rewrite E. exact H.
Qed.

(* parent_and_name, with what it leaves of the table: everything that was open stays as it was *)
Lemma parent_strong t root path dirp name o :
  path_split path = Some (Ok (dirp, Some name)) -> has_nul dirp = false ->
  Frame s F t -> tget t root = Some ROOT ->
  FSModel.ewalk s dirp false nosym = FSModel.WOk o ->
  exists t1 dir, run s rp t (parent_and_name fz o2 pfuel gh ps rs root path) = Done t1 (Ok (dir, name)) /\
    tget t1 dir = Some o /\ Frame s F t1 /\ tget t1 root = Some ROOT /\
    (forall x, indom t x -> tfind t1 x = tfind t x) /\
    (forall x, indom t1 x -> indom t x \/ x = dir).
Proof.
  intros Hsplit Hnul Hfr Hroot Hw.
  pose proof (parent_and_name_static s rp F fz o2 pfuel gh ps df rs t root path dirp name Hcl Hfz Hchk Hwf Hl Hk Hsplit Hnul Hfr Hroot) as H.
  rewrite Hw in H. destruct H as (t1 & dir & Hrun & Hdir).
  pose proof (parent_and_name_bal fz o2 pfuel gh ps rs (emu_res_ok fz o2 pfuel gh ps rs Hk) root path []) as Hb.
  destruct (bal_run s rp _ _ [] t t1 _ Hb Hrun (NoDup_nil _) ltac:(intros n [])) as (o' & HR & _ & _ & Hkeep & Honly).
  hnf in HR.
  assert (Hkeep' : forall x, indom t x -> tfind t1 x = tfind t x) by (intros x Hx; apply Hkeep; [exact Hx|intros []]).
  exists t1, dir. split; [exact Hrun|]. split; [exact Hdir|]. split; [|split; [|split]].
  - intros fd p Hin. destruct (Hfr fd p Hin) as [Hg Hp]. split; [exact (tget_keep _ _ _ _ Hg Hkeep')|exact Hp].
  - exact (tget_keep _ _ _ _ Hroot Hkeep').
  - exact Hkeep'.
  - intros x Hx. destruct (Honly x Hx) as [[Hin _]|Hin]; [left; exact Hin|right].
    apply (Permutation_in _ HR) in Hin. destruct Hin as [E|[]]. symmetry. exact E.
Qed.

(* every operation of the form  parent_and_name p1 ;; K  where K goes on with parent_and_name p2 :
   the descriptor of the first parent is still open on its object when the second walk is over,
   and the operation gets to whatever K gets to after that walk *)
Theorem reaches_two_parents {B} (K : Z * bytes -> prog (result B ekind)) (c : Z -> Z -> call)
        t root p1 dirp1 name1 p2 dirp2 name2 o1 o3 :
  path_split p1 = Some (Ok (dirp1, Some name1)) -> has_nul dirp1 = false ->
  path_split p2 = Some (Ok (dirp2, Some name2)) -> has_nul dirp2 = false ->
  Frame s F t -> tget t root = Some ROOT ->
  FSModel.ewalk s dirp1 false nosym = FSModel.WOk o1 -> FSModel.ewalk s dirp2 false nosym = FSModel.WOk o3 ->
  (forall t1 t2 d1 d2, run s rp t1 (parent_and_name fz o2 pfuel gh ps rs root p2) = Done t2 (Ok (d2, name2)) ->
     valid_fd d1 = true -> valid_fd d2 = true -> reaches s rp t1 (K (d1, name1)) (c d1 d2) t2) ->
  exists t2 d1 d2, tget t2 d1 = Some o1 /\ tget t2 d2 = Some o3 /\
    reaches s rp t (dn <-? parent_and_name fz o2 pfuel gh ps rs root p1 ;; K dn) (c d1 d2) t2.
Proof.
  intros Hs1 Hn1 Hs2 Hn2 Hfr Hroot Hw1 Hw2 HK.
  destruct (parent_strong t root p1 dirp1 name1 o1 Hs1 Hn1 Hfr Hroot Hw1) as (t1 & d1 & Hrun1 & Hd1 & Hfr1 & Hroot1 & _ & _).
  destruct (parent_strong t1 root p2 dirp2 name2 o3 Hs2 Hn2 Hfr1 Hroot1 Hw2) as (t2 & d2 & Hrun2 & Hd2 & _ & _ & Hkeep2 & _).
  pose proof (tget_keep _ _ _ _ Hd1 Hkeep2) as Hd1'.
  exists t2, d1, d2. split; [exact Hd1'|]. split; [exact Hd2|]. unfold bindR.
  eapply reaches_bind_done; [exact Hrun1|]. apply (HK t1 t2 d1 d2 Hrun2 (tget_valid _ _ _ Hd1') (tget_valid _ _ _ Hd2)).
Qed.

End OPS.
