(* PathProofs.v -- lemmas about Path.v, for all byte strings. *)
From PV Require Import Path.

Lemma beq_true_iff x y : beq x y = true <-> x = y.
Proof.
  revert y; induction x as [|a x IH]; intros [|c y]; cbn; split; intro H;
    try congruence; try reflexivity.
  - apply andb_true_iff in H as [H1 H2]. apply N.eqb_eq in H1. apply IH in H2. congruence.
  - inversion H; subst. rewrite N.eqb_refl. cbn. apply IH. reflexivity.
Qed.

Lemma beq_refl x : beq x x = true.
Proof. apply beq_true_iff; reflexivity. Qed.

(* keeps cbn / simpl from unfolding N.eqb of a variable and a constant into a match on binary positives *)
Arguments N.eqb : simpl never.

Lemma has_byte_cons c x r : has_byte c (x :: r) = N.eqb c x || has_byte c r.
Proof. reflexivity. Qed.
Lemma has_slash_cons x r : has_slash (x :: r) = N.eqb SLASH x || has_slash r.
Proof. reflexivity. Qed.
Lemma has_slash_cons_ne x r : N.eqb x SLASH = false -> has_slash (x :: r) = has_slash r.
Proof. intro H. rewrite has_slash_cons, N.eqb_sym, H. reflexivity. Qed.

Lemma has_byte_app c x y : has_byte c (x ++ y) = has_byte c x || has_byte c y.
Proof. unfold has_byte. apply existsb_app. Qed.

Lemma raw_components_nonempty p : raw_components p <> [].
Proof.
  induction p as [|c r IH]; cbn; [discriminate|].
  destruct (N.eqb c SLASH); [discriminate|].
  destruct (raw_components r); [contradiction|discriminate].
Qed.

Lemma raw_components_slash a c :
  raw_components (a ++ SLASH :: c) = raw_components a ++ raw_components c.
Proof.
  induction a as [|x a IH]; cbn [app raw_components].
  - rewrite N.eqb_refl. reflexivity.
  - rewrite IH. destruct (N.eqb x SLASH); [reflexivity|].
    pose proof (raw_components_nonempty a) as Hne.
    destruct (raw_components a) as [|h t]; [contradiction|reflexivity].
Qed.

Lemma raw_components_no_slash p :
  Forall (fun c => has_slash c = false) (raw_components p).
Proof.
  induction p as [|c r IH]; cbn.
  - constructor; [reflexivity|constructor].
  - destruct (N.eqb c SLASH) eqn:E.
    + constructor; [reflexivity|exact IH].
    + destruct (raw_components r) as [|h t] eqn:Er.
      * constructor; [|constructor]. rewrite has_slash_cons_ne by exact E. reflexivity.
      * inversion IH as [|? ? Hh Ht]; subst. constructor; [|exact Ht].
        rewrite has_slash_cons_ne by exact E. exact Hh.
Qed.

Lemma join_slash_cons c rest :
  rest <> [] -> join_slash (c :: rest) = c ++ SLASH :: join_slash rest.
Proof. destruct rest; [contradiction|reflexivity]. Qed.

Theorem join_raw_components p : join_slash (raw_components p) = p.
Proof.
  induction p as [|c r IH]; [reflexivity|].
  cbn [raw_components]. destruct (N.eqb c SLASH) eqn:E.
  - apply N.eqb_eq in E; subst c.
    rewrite join_slash_cons by apply raw_components_nonempty.
    cbn. now rewrite IH.
  - destruct (raw_components r) as [|h t] eqn:Er.
    + exfalso. eapply raw_components_nonempty; eauto.
    + destruct t as [|h2 t2].
      * cbn in *. now rewrite IH.
      * change (join_slash ((c :: h) :: h2 :: t2)) with ((c :: h) ++ SLASH :: join_slash (h2 :: t2)).
        change (join_slash (h :: h2 :: t2)) with (h ++ SLASH :: join_slash (h2 :: t2)) in IH.
        rewrite <- IH. reflexivity.
Qed.

Lemma raw_components_noslash_single p :
  has_slash p = false -> raw_components p = [p].
Proof.
  induction p as [|c r IH]; [reflexivity|].
  rewrite has_slash_cons. intro H.
  apply orb_false_iff in H as [H1 H2]. rewrite N.eqb_sym in H1.
  cbn [raw_components]. rewrite H1.
  rewrite IH by exact H2. reflexivity.
Qed.

(* the scan returns its accumulator when there is no '/', and otherwise the last one *)
Lemma rindex_slash_from_spec p : forall i acc,
  (has_slash p = false /\ rindex_slash_from i p acc = acc) \/
  (exists k, rindex_slash_from i p acc = Some (i + k)%nat /\ (k < length p)%nat /\
             nth k p 0 = SLASH /\ has_slash (skipn (S k) p) = false).
Proof.
  induction p as [|c r IH]; intros i acc; cbn [rindex_slash_from]; [left; split; reflexivity|].
  destruct (IH (S i) (if N.eqb c SLASH then Some i else acc)) as [[Hns E]|(k & E & Hk & Hn & Hs)]; rewrite E.
  - destruct (N.eqb c SLASH) eqn:Ec.
    + right. exists 0%nat. apply N.eqb_eq in Ec. rewrite Nat.add_0_r.
      repeat split; [apply Nat.lt_0_succ|exact Ec|exact Hns].
    + left. split; [|reflexivity]. rewrite has_slash_cons_ne by exact Ec. exact Hns.
  - right. exists (S k). rewrite Nat.add_succ_r.
    repeat split; [apply (proj1 (Nat.succ_lt_mono _ _)), Hk|exact Hn|exact Hs].
Qed.

Lemma rindex_slash_none p : rindex_slash p = None -> has_slash p = false.
Proof.
  unfold rindex_slash. destruct (rindex_slash_from_spec p 0 None) as [[H _]|(k & E & _)]; [intros _; exact H|].
  rewrite E. discriminate.
Qed.

Lemma rindex_slash_some p j :
  rindex_slash p = Some j ->
  (j < length p)%nat /\ nth j p 0 = SLASH /\ has_slash (skipn (S j) p) = false.
Proof.
  unfold rindex_slash. destruct (rindex_slash_from_spec p 0 None) as [[_ E]|(k & E & H)]; rewrite E; [discriminate|].
  intro Hj; inversion Hj; subst. exact H.
Qed.

Lemma skipn_nth_cons {A} (d : A) (l : list A) n :
  (n < length l)%nat -> skipn n l = nth n l d :: skipn (S n) l.
Proof.
  revert l; induction n as [|n IH]; intros [|x l] H; cbn in *; try lia; auto.
  apply IH. lia.
Qed.

Lemma partial_ancestors_nonempty p : partial_ancestors p <> [].
Proof.
  unfold partial_ancestors. cbn [anc_iter].
  destruct (rindex_slash p); discriminate.
Qed.

(* path_split cuts at the last '/': a path without one is a name under ".", otherwise what is
   before it (the root, if that is nothing) and what is after it (no name, if that is nothing).
   In particular it returns neither None -- the expect() cannot fire -- nor an error: the two
   SafetyViolation branches are dead code. *)
Lemma path_split_cases p :
  (has_slash p = false /\
   path_split p = Some (Ok ([DOT], if is_nil p then None else Some p))) \/
  (exists d0 n, p = d0 ++ SLASH :: n /\ has_slash n = false /\
     path_split p = Some (Ok (if is_nil d0 then [SLASH] else d0, if is_nil n then None else Some n))).
Proof.
  unfold path_split, partial_ancestors. cbn [anc_iter].
  destruct (rindex_slash p) as [idx|] eqn:Er.
  - right. apply rindex_slash_some in Er as [Hlt [Hn Hs]]. exists (firstn idx p), (skipn (S idx) p).
    rewrite (skipn_nth_cons 0 p idx Hlt), Hn. cbn [tl].
    split; [|split; [exact Hs|]].
    + rewrite <- Hn, <- (skipn_nth_cons 0 p idx Hlt). symmetry. apply firstn_skipn.
    + cbn [beq]. rewrite N.eqb_refl. cbn [andb].
      destruct (skipn (S idx) p) as [|c s]; [reflexivity|]. cbn [beq is_nil]. rewrite Hs. reflexivity.
  - left. apply rindex_slash_none in Er. split; [exact Er|].
    destruct (is_nil p) eqn:E0; [reflexivity|]. rewrite E0, Er. reflexivity.
Qed.

Theorem path_split_total p : path_split p <> None.
Proof. destruct (path_split_cases p) as [[_ E]|(d0 & n & _ & _ & E)]; congruence. Qed.

Theorem path_split_never_err p e : path_split p <> Some (Err e).
Proof. destruct (path_split_cases p) as [[_ E]|(d0 & n & _ & _ & E)]; congruence. Qed.

Theorem path_split_name_single p d n :
  path_split p = Some (Ok (d, Some n)) -> n <> [] /\ has_slash n = false.
Proof.
  intro H. destruct (path_split_cases p) as [[Hs E]|(d0 & n0 & _ & Hs & E)]; rewrite E in H.
  - destruct p; [discriminate H|]. injection H as _ <-. split; [discriminate|exact Hs].
  - destruct n0; [discriminate H|]. injection H as _ <-. split; [discriminate|exact Hs].
Qed.

Theorem path_split_noname p d :
  path_split p = Some (Ok (d, None)) -> p = [] \/ (exists q, p = q ++ [SLASH]).
Proof.
  intro H. destruct (path_split_cases p) as [[Hs E]|(d0 & n0 & Hp & _ & E)]; rewrite E in H.
  - left. destruct p; [reflexivity|discriminate H].
  - right. exists d0. destruct n0; [exact Hp|discriminate H].
Qed.

Lemma has_slash_mid a y : has_slash (a ++ SLASH :: y) = true.
Proof. unfold has_slash. rewrite has_byte_app, has_byte_cons, N.eqb_refl. apply orb_true_r. Qed.

(* there is one way to cut a path at its last slash *)
Lemma last_slash_inj a c x y : has_slash x = false -> has_slash y = false ->
  a ++ SLASH :: x = c ++ SLASH :: y -> a = c /\ x = y.
Proof.
  revert c. induction a as [|h a IH]; intros [|k c] Hx Hy E; cbn [app] in E.
  - injection E as E. auto.
  - injection E as _ E. rewrite E, has_slash_mid in Hx. discriminate.
  - injection E as _ E. rewrite <- E, has_slash_mid in Hy. discriminate.
  - injection E as -> E. destruct (IH c Hx Hy E) as [-> ->]. auto.
Qed.

Lemma path_split_name d0 n : d0 <> [] -> has_slash n = false -> n <> [] ->
  path_split (d0 ++ SLASH :: n) = Some (Ok (d0, Some n)).
Proof.
  intros Hd Hn Hne. destruct (path_split_cases (d0 ++ SLASH :: n)) as [[Hs _]|(d1 & n1 & Hp & Hn1 & ->)].
  - rewrite has_slash_mid in Hs. discriminate.
  - destruct (last_slash_inj _ _ _ _ Hn Hn1 Hp) as [<- <-].
    destruct d0; [contradiction|]. destruct n; [contradiction|]. reflexivity.
Qed.

Lemma rindex_nonslash_from_noslash d : has_slash d = false -> d <> [] ->
  forall i acc, rindex_nonslash_from i d acc = Some (i + length d - 1)%nat.
Proof.
  induction d as [|c r IH]; intros H Hne i acc; [contradiction|]. cbn [rindex_nonslash_from length].
  rewrite has_slash_cons in H. apply orb_false_iff in H as [Hc Hr]. rewrite N.eqb_sym in Hc. rewrite Hc.
  destruct r as [|c' r'].
  - cbn [rindex_nonslash_from length]. f_equal. lia.
  - rewrite (IH Hr ltac:(discriminate)). f_equal. cbn [length]. lia.
Qed.

Lemma strip_name_end q n : has_slash n = false -> n <> [] ->
  path_strip_trailing_slash (q ++ n) = (q ++ n, false).
Proof.
  intros H Hne. unfold path_strip_trailing_slash, rindex_nonslash.
  assert (E : forall i acc, rindex_nonslash_from i (q ++ n) acc = Some (i + length (q ++ n) - 1)%nat).
  { induction q as [|c q IH]; intros i acc; [apply rindex_nonslash_from_noslash; assumption|].
    cbn [app rindex_nonslash_from length]. rewrite IH. f_equal. lia. }
  rewrite E. cbn [Nat.add]. rewrite Nat.eqb_refl. reflexivity.
Qed.

Lemma to_c_string_no_nul p : has_nul (to_c_string p) = false.
Proof.
  induction p as [|c r IH]; [reflexivity|]. cbn.
  destruct (N.eqb c 0) eqn:E; [reflexivity|].
  unfold has_nul, has_byte in *; cbn. rewrite N.eqb_sym, E. exact IH.
Qed.

Lemma to_c_string_id p : has_nul p = false -> to_c_string p = p.
Proof.
  induction p as [|c r IH]; [reflexivity|]. unfold has_nul, has_byte; cbn.
  intro H. apply orb_false_iff in H as [H1 H2]. rewrite N.eqb_sym in H1. rewrite H1.
  f_equal. apply IH. exact H2.
Qed.
