(* DynRemove.v -- C13 on the dynamic kernel (theories/Dyn.v).
   1. [remove_all_dyn]: executing dir.rs remove_all(dirfd, name) -- unlink / rmdir, the scan
      rounds over fresh directory streams, the recursion into sub-directories -- computes the
      pure function [rm_all] of the tree (same resulting tree, same result), leaves the
      descriptor table exactly as it was and every directory stream it read closed.
   2. What [rm_all] does to ANY tree: objects and parents are untouched, the entries afterwards
      are among the entries before ([rm_all_shrinks]), every entry that disappeared lies
      BENEATH (dir, name) -- it is that entry, or an entry of a directory reached from it by
      descending through real sub-directories (never through a link) -- ([rm_all_only]), and when
      it reports success the named entry is gone ([rm_all_gone]).
   Every step of [rm_all] that changes the tree is a successful unlinkat; so whatever reflexive and
   transitive relation on trees holds across each successful unlinkat holds across rm_all
   ([rm_all_R]). *)
From PV Require Import Dyn StaticProofs StaticProcfs StaticBal StaticEffects DynProofs DynMkdir.

(* dir.rs remove_inode: unlinkat(0), then unlinkat(AT_REMOVEDIR); the errno is that of the second call, or of the first
   when the second says ENOTDIR.  An answer outside the model counts as errno ENOSYS: the branches that test
   [N.eqb ENOSYS ENOTDIR] are that rule with ENOSYS put in ([rm_inode_spec] states it once) *)
Definition rm_inode (s : fs) (d : nat) (name : bytes) : fs * result unit ekind :=
  match unlink_sem s d name 0 with
  | EUnit s' => (s', Ok tt)
  | EErr ue =>
      match unlink_sem s d name AT_REMOVEDIR with
      | EUnit s' => (s', Ok tt)
      | EErr re => (s, Err (OsError (if N.eqb re ENOTDIR then ue else re)))
      | _ => (s, Err (OsError (if N.eqb ENOSYS ENOTDIR then ue else ENOSYS)))
      end
  | _ =>
      match unlink_sem s d name AT_REMOVEDIR with
      | EUnit s' => (s', Ok tt)
      | EErr re => (s, Err (OsError (if N.eqb re ENOTDIR then ENOSYS else re)))
      | _ => (s, Err (OsError ENOSYS))
      end
  end.

(* one pass over a directory stream of [c]: [read] = the stream has been read to its end; the bool [seen] = this pass
   met an entry other than "." and ".." (the lemmas below call it [saw]: [seen] is also Dyn.dseen, the streams read) *)
Fixpoint rm_entries (rec : fs -> bytes -> option (fs * result unit ekind)) (g : nat) (s : fs) (c : nat)
         (buf : list bytes) (read seen : bool) : option (fs * result bool ekind) :=
  match g with
  | O => None
  | S g' =>
      match buf with
      | n :: rest =>
          if dot_or_dotdot n then rm_entries rec g' s c rest read seen
          else match rec s n with
               | None => None
               | Some (s', r) =>
                   match ignore_enoent r with
                   | Err e => Some (s', Err e)
                   | Ok _ => rm_entries rec g' s' c rest read true
                   end
               end
      | [] =>
          if read then Some (s, Ok seen)
          else rm_entries rec g' s c ([DOT] :: [DOT; DOT] :: dir_names s c) true seen
      end
  end.

Fixpoint rm_rounds (scan : fs -> option (fs * result bool ekind)) (finish_ : fs -> fs * result unit ekind)
         (g : nat) (s : fs) : option (fs * result unit ekind) :=
  match g with
  | O => None
  | S g' =>
      match scan s with
      | None => None
      | Some (s', Err e) => Some (s', Err e)
      | Some (s', Ok false) => Some (finish_ s')
      | Some (s', Ok true) => rm_rounds scan finish_ g' s'
      end
  end.

Fixpoint rm_all (fuel : nat) (s : fs) (d : nat) (name : bytes) : option (fs * result unit ekind) :=
  match fuel with
  | O => None
  | S f =>
      if has_slash name then Some (s, Err SafetyViolation) else
      if REMOVE_ALL_REFUSES_DOTS && dot_or_dotdot name then Some (s, Err InvalidArgument) else
      let '(s1, r) := rm_inode s d name in
      match ignore_enoent r with
      | Ok _ => Some (s1, Ok tt)
      | Err _ =>
          match mk_open s1 d name with
          | inr e => if N.eqb e ENOENT then Some (s1, Ok tt) else Some (s1, Err (OsError e))
          | inl c =>
              rm_rounds (fun s2 => rm_entries (fun s3 n => rm_all f s3 c n) f s2 c [] false false)
                        (fun s2 => let '(s3, r) := rm_inode s2 d name in (s3, ignore_enoent r)) f s1
          end
      end
  end.

Lemma zrem_notin x l : zmem x l = false -> zrem x l = l.
Proof.
  induction l as [|y l IH]; cbn [zmem zrem]; [reflexivity|]. intro H. apply orb_false_iff in H. destruct H as [H1 H2].
  rewrite H1, (IH H2). reflexivity.
Qed.

Lemma zrem_cons_same x l : zmem x l = false -> zrem x (x :: l) = l.
Proof. intro H. cbn [zrem]. rewrite Z.eqb_refl. apply zrem_notin. exact H. Qed.

Lemma zmem_cons_other x y l : x <> y -> zmem x (y :: l) = zmem x l.
Proof. intro H. cbn [zmem]. destruct (Z.eqb_spec x y); [contradiction|reflexivity]. Qed.

Lemma plain_of n : is_nil n = false -> has_slash n = false -> has_nul n = false -> dot_or_dotdot n = false -> Dyn.plain n = true.
Proof.
  unfold Dyn.plain, dot_or_dotdot. intros Hn Hs Hz Hd. apply orb_false_iff in Hd. destruct Hd as [Hd Hdd].
  rewrite Hn, Hs, Hz, Hd, Hdd. reflexivity.
Qed.

Lemma name_err_short n : too_long n = false -> FSModel.name_err n = ENOENT.
Proof. intro H. unfold FSModel.name_err. unfold too_long in H. rewrite H. reflexivity. Qed.

Lemma beq_sym x y : beq x y = beq y x.
Proof.
  revert y. induction x as [|a x IH]; intros [|c y]; cbn [beq]; try reflexivity. rewrite N.eqb_sym, IH. reflexivity.
Qed.

Lemma find_ent_none es d n n' c : FSModel.find_ent es d n = None -> In (d, n', c) es -> beq n n' = true -> False.
Proof.
  induction es as [|[[d0 n0] c0] es IH]; intros H Hin Hb; [destruct Hin|]. cbn [FSModel.find_ent] in H.
  destruct Hin as [E|Hin].
  - inversion E; subst. rewrite Nat.eqb_refl, Hb in H. discriminate.
  - destruct (Nat.eqb d d0 && beq n n0); [discriminate|]. exact (IH H Hin Hb).
Qed.

Definition shrinks (s s' : fs) : Prop :=
  kinds s' = kinds s /\ parents s' = parents s /\ incl (ents s') (ents s).

Lemma shrinks_refl s : shrinks s s.
Proof. repeat split; try reflexivity. apply incl_refl. Qed.

Lemma shrinks_trans s1 s2 s3 : shrinks s1 s2 -> shrinks s2 s3 -> shrinks s1 s3.
Proof. intros (A1 & B1 & C1) (A2 & B2 & C2). repeat split; [congruence|congruence|eapply incl_tran; eassumption]. Qed.

Lemma is_dir_shrinks s s' o : shrinks s s' -> is_dir s' o = is_dir s o.
Proof. intros (Hk & _). unfold FSModel.is_dir, FSModel.kind_of. rewrite Hk. reflexivity. Qed.

Lemma lookup_shrinks_none s s' d n : shrinks s s' -> lookup s d n = None -> lookup s' d n = None.
Proof.
  intros (_ & _ & Hi) H. destruct (lookup s' d n) as [c|] eqn:E; [|reflexivity]. exfalso.
  destruct (FSProofs.find_ent_spec _ _ _ _ E) as (n' & Hin & Hb). exact (find_ent_none _ _ _ _ _ H (Hi _ Hin) Hb).
Qed.

(* the tree invariant of the refinement: entries point at objects, names are ordinary last components ([Dyn.plain]) *)
Definition ents_ok (s : fs) : Prop :=
  forall e, In e (ents s) -> (ent_obj e < NPB s)%nat /\ Dyn.plain (ent_name e) = true.

Lemma ents_ok_shrinks s s' : shrinks s s' -> ents_ok s -> ents_ok s'.
Proof. intros (Hk & _ & Hi) H e He. unfold NPB. rewrite Hk. apply H, Hi, He. Qed.

Lemma lookup_lt s d n c : ents_ok s -> lookup s d n = Some c -> (c < NPB s)%nat.
Proof. intros Hok H. destruct (FSProofs.find_ent_spec _ _ _ _ H) as (n' & Hin & _). exact (proj1 (Hok _ Hin)). Qed.

Lemma dir_names_plain s c : ents_ok s -> Forall (fun n => dot_or_dotdot n = true \/ Dyn.plain n = true) (dir_names s c).
Proof.
  intro Hok. unfold dir_names. apply Forall_forall. intros n Hn. apply in_map_iff in Hn. destruct Hn as (e & <- & He).
  apply filter_In in He. right. exact (proj2 (Hok _ (proj1 He))).
Qed.

Lemma del_ent_shrinks s d n : shrinks s (del_ent s d n).
Proof. repeat split; try reflexivity. unfold del_ent. cbn [FSModel.ents]. apply incl_filter. Qed.

Lemma del_ent_in s d n e : In e (ents s) -> ~ In e (ents (del_ent s d n)) -> ent_dir e = d /\ beq (ent_name e) n = true.
Proof.
  intros He Hne. unfold del_ent in Hne. cbn [FSModel.ents] in Hne.
  destruct (ent_at d n e) eqn:Ea.
  - unfold ent_at in Ea. apply andb_true_iff in Ea. destruct Ea as [E1 E2]. apply Nat.eqb_eq in E1. split; assumption.
  - exfalso. apply Hne. apply filter_In. split; [exact He|]. rewrite Ea. reflexivity.
Qed.

Lemma lookup_del_ent s d n : lookup (del_ent s d n) d n = None.
Proof.
  destruct (lookup (del_ent s d n) d n) as [c|] eqn:E; [|reflexivity]. exfalso.
  destruct (FSProofs.find_ent_spec _ _ _ _ E) as (n' & Hin & Hb). unfold del_ent in Hin. cbn [FSModel.ents] in Hin.
  apply filter_In in Hin. destruct Hin as [_ Hf]. unfold ent_at in Hf. cbn [ent_dir ent_name fst snd] in Hf.
  rewrite Nat.eqb_refl, beq_sym, Hb in Hf. discriminate.
Qed.

(* what [DynProofs.unlink_sem_cases] says of a successful unlinkat *)
Definition unlinked (s : fs) (d : nat) (n : bytes) (fl : N) (s' : fs) : Prop :=
  s' = del_ent s d n /\ exists c, lookup s d n = Some c /\
  if N.eqb fl 0 then is_dir s c = false else is_dir s c = true /\ has_child s c = false.

Lemma unlink_sem_unit s d n fl s' : unlink_sem s d n fl = EUnit s' -> unlinked s d n fl s'.
Proof. intro H. pose proof (unlink_sem_cases s d n fl) as C. rewrite H in C. exact C. Qed.

Lemma unlink_sem_shrinks s d n fl s' : unlink_sem s d n fl = EUnit s' -> shrinks s s'.
Proof. intro H. destruct (unlink_sem_unit _ _ _ _ _ H) as [-> _]. apply del_ent_shrinks. Qed.

Lemma unlink_sem_gone s d n fl s' : unlink_sem s d n fl = EUnit s' -> lookup s' d n = None.
Proof. intro H. destruct (unlink_sem_unit _ _ _ _ _ H) as [-> _]. apply lookup_del_ent. Qed.

Lemma unlink_sem_enoent s d n fl : Dyn.plain n = true -> unlink_sem s d n fl = EErr ENOENT -> lookup s d n = None.
Proof.
  intros Hp. destruct (plain_facts _ Hp) as (Hnil & Hd & Hdd & Hsl & Hnu).
  unfold unlink_sem. rewrite Hnil, Hsl, Hnu, Hd, Hdd. cbn [orb].
  intro H. repeat (first [discriminate | reflexivity | match type of H with context [match ?x with _ => _ end] => destruct x eqn:? end]).
Qed.

Lemma unlink0_spec s d n : Dyn.plain n = true -> too_long n = false -> is_dir s d = true ->
  unlink_sem s d n 0 = match lookup s d n with
                       | None => EErr ENOENT
                       | Some c => if is_dir s c then EErr EISDIR else EUnit (del_ent s d n)
                       end.
Proof.
  intros Hp Hl Hd. destruct (plain_facts _ Hp) as (Hnil & Hdot & Hdd & Hsl & Hnu).
  unfold unlink_sem. rewrite Hd, Hnil, Hsl, Hnu, Hdot, Hdd, (name_err_short _ Hl). reflexivity.
Qed.

Lemma rmdir_spec s d n : Dyn.plain n = true -> too_long n = false -> is_dir s d = true ->
  unlink_sem s d n AT_REMOVEDIR = match lookup s d n with
                                  | None => EErr ENOENT
                                  | Some c => if negb (is_dir s c) then EErr ENOTDIR
                                              else if has_child s c then EErr ENOTEMPTY else EUnit (del_ent s d n)
                                  end.
Proof.
  intros Hp Hl Hd. destruct (plain_facts _ Hp) as (Hnil & Hdot & Hdd & Hsl & Hnu).
  unfold unlink_sem. rewrite Hd, Hnil, Hsl, Hnu, Hdot, Hdd, (name_err_short _ Hl). reflexivity.
Qed.

(* [DynRemoveConc.code], defined later with the interleaved semantics, is this function *)
Definition code_of (r : eres) : N := match r with EErr e => e | _ => ENOSYS end.

Lemma code_of_enoent r : code_of r = ENOENT -> r = EErr ENOENT.
Proof. destruct r; cbn [code_of]; intro H; try discriminate. rewrite H. reflexivity. Qed.

Lemma rm_inode_spec s d n :
  (unlink_sem s d n 0 = EUnit (fst (rm_inode s d n)) /\ snd (rm_inode s d n) = Ok tt) \/
  ((forall x, unlink_sem s d n 0 <> EUnit x) /\
   unlink_sem s d n AT_REMOVEDIR = EUnit (fst (rm_inode s d n)) /\ snd (rm_inode s d n) = Ok tt) \/
  ((forall x, unlink_sem s d n 0 <> EUnit x) /\ (forall x, unlink_sem s d n AT_REMOVEDIR <> EUnit x) /\
   rm_inode s d n = (s, Err (OsError (if N.eqb (code_of (unlink_sem s d n AT_REMOVEDIR)) ENOTDIR
                                      then code_of (unlink_sem s d n 0) else code_of (unlink_sem s d n AT_REMOVEDIR))))).
Proof.
  unfold rm_inode. generalize (unlink_sem s d n 0) (unlink_sem s d n AT_REMOVEDIR). intros r0 r1.
  destruct r0 as [|ue|s1|s1 o1]; [| |left; split; reflexivity|];
    (right; destruct r1 as [|re|s3|s3 o3];
     [right| right|left|right]; repeat split; try reflexivity; intros x Hx; discriminate).
Qed.

Lemma ignore_enoent_os e : ignore_enoent (Err (OsError e)) = Ok tt -> e = ENOENT.
Proof.
  cbn [ignore_enoent]. unfold errno_is. cbn [kind_errno opt_n_eqb]. destruct (N.eqb_spec e ENOENT); [trivial|discriminate].
Qed.

Lemma rm_inode_gone s d n : Dyn.plain n = true -> ignore_enoent (snd (rm_inode s d n)) = Ok tt -> lookup (fst (rm_inode s d n)) d n = None.
Proof.
  intros Hp. destruct (rm_inode_spec s d n) as [[E _]|[(_ & E & _)|(_ & _ & E)]];
    [intros _; exact (unlink_sem_gone _ _ _ _ _ E)|intros _; exact (unlink_sem_gone _ _ _ _ _ E)|].
  rewrite E. cbn [fst snd]. intro H. apply ignore_enoent_os in H.
  destruct (N.eqb (code_of (unlink_sem s d n AT_REMOVEDIR)) ENOTDIR); apply code_of_enoent in H;
    exact (unlink_sem_enoent _ _ _ _ Hp H).
Qed.

Lemma rm_inode_failed s d n e : ignore_enoent (snd (rm_inode s d n)) = Err e -> fst (rm_inode s d n) = s.
Proof.
  destruct (rm_inode_spec s d n) as [[_ S]|[(_ & _ & S)|(_ & _ & E)]]; [rewrite S; discriminate|rewrite S; discriminate|].
  rewrite E. reflexivity.
Qed.

Lemma rm_inode_absent s d n : Dyn.plain n = true -> too_long n = false -> is_dir s d = true -> lookup s d n = None ->
  rm_inode s d n = (s, Err (OsError ENOENT)).
Proof. intros Hp Hl Hd Hn. unfold rm_inode. rewrite (unlink0_spec s d n Hp Hl Hd), (rmdir_spec s d n Hp Hl Hd), Hn. reflexivity. Qed.

Definition rm_scan (f c : nat) (s : fs) : option (fs * result bool ekind) :=
  rm_entries (fun s3 n => rm_all f s3 c n) f s c [] false false.
Definition rm_fin (d : nat) (name : bytes) (s : fs) : fs * result unit ekind :=
  let '(s3, r) := rm_inode s d name in (s3, ignore_enoent r).

Lemma rm_fin_eq d name s : rm_fin d name s = (fst (rm_inode s d name), ignore_enoent (snd (rm_inode s d name))).
Proof. unfold rm_fin. destruct (rm_inode s d name). reflexivity. Qed.

Inductive rm_all_case (f : nat) (s : fs) (d : nat) (name : bytes) : option (fs * result unit ekind) -> Prop :=
| rac_slash : has_slash name = true -> rm_all_case f s d name (Some (s, Err SafetyViolation))
| rac_dots : has_slash name = false -> dot_or_dotdot name = true -> rm_all_case f s d name (Some (s, Err InvalidArgument))
| rac_done u : has_slash name = false -> dot_or_dotdot name = false -> ignore_enoent (snd (rm_inode s d name)) = Ok u ->
    rm_all_case f s d name (Some (fst (rm_inode s d name), Ok tt))
| rac_noent e0 e : has_slash name = false -> dot_or_dotdot name = false -> ignore_enoent (snd (rm_inode s d name)) = Err e0 ->
    mk_open (fst (rm_inode s d name)) d name = inr e ->
    rm_all_case f s d name (Some (fst (rm_inode s d name), if N.eqb e ENOENT then Ok tt else Err (OsError e)))
| rac_dir e0 c : has_slash name = false -> dot_or_dotdot name = false -> ignore_enoent (snd (rm_inode s d name)) = Err e0 ->
    mk_open (fst (rm_inode s d name)) d name = inl c ->
    rm_all_case f s d name (rm_rounds (rm_scan f c) (rm_fin d name) f (fst (rm_inode s d name))).

Lemma refuses_dots name : REMOVE_ALL_REFUSES_DOTS && dot_or_dotdot name = dot_or_dotdot name.
Proof. reflexivity. Qed.

Lemma rm_all_cases f s d name : rm_all_case f s d name (rm_all (S f) s d name).
Proof.
  cbn [rm_all]. rewrite refuses_dots. destruct (has_slash name) eqn:Hsl; [exact (rac_slash _ _ _ _ Hsl)|].
  destruct (dot_or_dotdot name) eqn:Hd; [exact (rac_dots _ _ _ _ Hsl Hd)|].
  pose proof (rac_done f s d name) as Cdone. pose proof (rac_noent f s d name) as Cno. pose proof (rac_dir f s d name) as Cdir.
  destruct (rm_inode s d name) as [s1 r1]. cbn [fst snd] in *.
  destruct (ignore_enoent r1) as [u|e0] eqn:Ei; [exact (Cdone u Hsl Hd eq_refl)|].
  destruct (mk_open s1 d name) as [c|e]; [exact (Cdir e0 c Hsl Hd eq_refl eq_refl)|].
  specialize (Cno e0 e Hsl Hd eq_refl eq_refl). destruct (N.eqb e ENOENT); exact Cno.
Qed.

Section Closure.
Variable R : fs -> fs -> Prop.
Hypothesis R_refl : forall s, R s s.
Hypothesis R_trans : forall a b c, R a b -> R b c -> R a c.

Lemma rm_inode_R s d n : (forall fl s', unlink_sem s d n fl = EUnit s' -> R s s') -> R s (fst (rm_inode s d n)).
Proof.
  intro Hu. destruct (rm_inode_spec s d n) as [[E _]|[(_ & E & _)|(_ & _ & E)]]; [exact (Hu _ _ E)|exact (Hu _ _ E)|].
  rewrite E. apply R_refl.
Qed.

Lemma rm_entries_R rec : (forall s n s' r, rec s n = Some (s', r) -> R s s') ->
  forall g s c buf read saw s' r, rm_entries rec g s c buf read saw = Some (s', r) -> R s s'.
Proof.
  intro Hrec. induction g as [|g IH]; intros s c buf read saw s' r H; cbn [rm_entries] in H; [discriminate|].
  destruct buf as [|n rest].
  - destruct read; [inversion H; subst; apply R_refl|]. eapply IH. exact H.
  - destruct (dot_or_dotdot n); [eapply IH; exact H|].
    destruct (rec s n) as [[s1 r1]|] eqn:Er; [|discriminate]. pose proof (Hrec _ _ _ _ Er) as Hs1.
    destruct (ignore_enoent r1); [|inversion H; subst; exact Hs1].
    eapply R_trans; [exact Hs1|]. eapply IH. exact H.
Qed.

Lemma rm_rounds_R scan fin : (forall s s' r, scan s = Some (s', r) -> R s s') -> (forall s, R s (fst (fin s))) ->
  forall g s s' r, rm_rounds scan fin g s = Some (s', r) -> R s s'.
Proof.
  intros Hscan Hfin. induction g as [|g IH]; intros s s' r H; cbn [rm_rounds] in H; [discriminate|].
  destruct (scan s) as [[s1 [[|]|e]]|] eqn:Es; try discriminate.
  - eapply R_trans; [exact (Hscan _ _ _ Es)|]. eapply IH. exact H.
  - inversion H as [H1]. eapply R_trans; [exact (Hscan _ _ _ Es)|]. pose proof (Hfin s1) as Hf. rewrite H1 in Hf. exact Hf.
  - inversion H; subst. exact (Hscan _ _ _ Es).
Qed.

Hypothesis R_unlink : forall s d n fl s', unlink_sem s d n fl = EUnit s' -> R s s'.

Theorem rm_all_R : forall fuel s d name s' r, rm_all fuel s d name = Some (s', r) -> R s s'.
Proof.
  induction fuel as [|f IH]; intros s d name s' r; [discriminate|].
  pose proof (rm_inode_R s d name (R_unlink s d name)) as Hi.
  destruct (rm_all_cases f s d name) as [_|_ _|u _ _ _|e0 e _ _ _ _|e0 c _ _ _ _]; intro H.
  - inversion H; subst. apply R_refl.
  - inversion H; subst. apply R_refl.
  - inversion H; subst. exact Hi.
  - inversion H; subst. exact Hi.
  - apply (R_trans _ _ _ Hi). eapply rm_rounds_R; [| |exact H].
    + intros s2 s3 r3. apply rm_entries_R. intros s4 n s5 r5. apply IH.
    + intro s2. rewrite rm_fin_eq. apply rm_inode_R, R_unlink.
Qed.
End Closure.

Lemma rm_inode_shrinks s d n : shrinks s (fst (rm_inode s d n)).
Proof. apply (rm_inode_R shrinks shrinks_refl). intros fl s'. apply unlink_sem_shrinks. Qed.

Lemma rm_inode_kinds s d n : kinds (fst (rm_inode s d n)) = kinds s /\ parents (fst (rm_inode s d n)) = parents s.
Proof. destruct (rm_inode_shrinks s d n) as (A & B & _). split; assumption. Qed.

Theorem rm_all_shrinks : forall fuel s d name s' r, rm_all fuel s d name = Some (s', r) -> shrinks s s'.
Proof. exact (rm_all_R shrinks shrinks_refl shrinks_trans unlink_sem_shrinks). Qed.

Lemma rm_scan_shrinks f c s s' r : rm_scan f c s = Some (s', r) -> shrinks s s'.
Proof. apply (rm_entries_R shrinks shrinks_refl shrinks_trans). intros s3 n s4 r4. apply rm_all_shrinks. Qed.

Definition seen_ok (t : fdt) (seen : list Z) : Prop := forall x, zmem x seen = true -> indom t x.

Lemma seen_ok_cons t seen n o : seen_ok t seen -> seen_ok ((n, o) :: t) seen.
Proof. intros H x Hx. specialize (H x Hx). unfold indom in *. cbn [tfind]. destruct (Z.eqb n x); [discriminate|exact H]. Qed.

Lemma seen_ok_add t seen n o : seen_ok t seen -> seen_ok ((n, o) :: t) (n :: seen).
Proof.
  intros H x Hx. cbn [zmem] in Hx. unfold indom. cbn [tfind]. destruct (Z.eqb_spec n x) as [E|Hne]; [discriminate|].
  destruct (Z.eqb_spec x n) as [E|_]; [congruence|]. cbn [orb] in Hx. exact (H x Hx).
Qed.

(* a descriptor that has just been allocated has no directory stream yet; closing it again restores
   the table and the set of streams *)
Lemma seen_ok_fresh t seen : seen_ok t seen -> zmem (fresh t) seen = false.
Proof. intro H. destruct (zmem (fresh t) seen) eqn:E; [|reflexivity]. exfalso. exact (indom_fresh t (H _ E)). Qed.

Lemma close_fresh t seen o : seen_ok t seen -> tdel ((fresh t, o) :: t) (fresh t) = t /\ zrem (fresh t) seen = seen.
Proof. intro H. split; [apply tdel_new|exact (zrem_notin _ _ (seen_ok_fresh _ _ H))]. Qed.

Lemma seen_ok_read t seen fd c : tget t fd = Some c -> seen_ok t seen -> seen_ok t (fd :: seen).
Proof.
  intros Hfd H x Hx. cbn [zmem] in Hx. destruct (Z.eqb_spec x fd) as [E|_]; [rewrite E; exact (tget_indom _ _ _ Hfd)|exact (H x Hx)].
Qed.

Lemma remove_dir_open : dir_open_flags (N.lor (N.lor (N.lor REMOVE_ALL_OPEN_FLAGS OPENAT_NOFOLLOW_FORCED) OPENAT_FORCED) O_LARGEFILE).
Proof. repeat split. Qed.

(* Dir::read_from re-opens "." with the flags F_GETFL reports, O_CLOEXEC added *)
Lemma reopen_dir_open : dir_open_flags (N.lor (N.lor GETFL_DIR O_CLOEXEC) O_LARGEFILE).
Proof. repeat split. Qed.

Section RM.
Variable rp : bytes.
Variable fz : nat.
Hypothesis Hfz : fz <> 0%nat.
Notation drun := (Dyn.drun rp).
Notation danswer := (Dyn.danswer rp).

(* a successful unlinkat adds no object: the descriptor table is not renumbered *)
Lemma eff_st_unlink s t seen d n fl s' : unlink_sem s d n fl = EUnit s' ->
  eff_st s t seen (EUnit s') = {| ds := s'; dt := t; dseen := seen |}.
Proof.
  intro H. destruct (unlink_sem_unit _ _ _ _ _ H) as [-> _]. cbn [eff_st]. change (NPB (del_ent s d n)) with (NPB s).
  rewrite reloc_same. reflexivity.
Qed.

Lemma drun_remove_inode s t seen dirfd d name :
  tget t dirfd = Some d -> (d < NPB s)%nat -> has_nul name = false ->
  drun {| ds := s; dt := t; dseen := seen |} (remove_inode fz dirfd name) =
  DDone {| ds := fst (rm_inode s d name); dt := t; dseen := seen |} (snd (rm_inode s d name)).
Proof.
  intros Hd Hlt Hn. unfold remove_inode, rm_inode.
  pose proof (unlink_not_open s d name 0) as N0. pose proof (unlink_not_open s d name AT_REMOVEDIR) as N1.
  rewrite drun_bind, (drun_w_unlinkat rp fz Hfz s t seen dirfd d name 0 Hd Hlt Hn).
  destruct (unlink_sem s d name 0) as [|ue|s'|s' o] eqn:E0; cbn [eff_unit];
    [| |rewrite (eff_st_unlink _ _ _ _ _ _ _ E0); reflexivity|destruct N0];
    cbn [eff_st]; rewrite drun_bind, (drun_w_unlinkat rp fz Hfz s t seen dirfd d name AT_REMOVEDIR Hd Hlt Hn);
    (destruct (unlink_sem s d name AT_REMOVEDIR) as [|re|s'|s' o] eqn:E1; cbn [eff_unit];
     [reflexivity|reflexivity|rewrite (eff_st_unlink _ _ _ _ _ _ _ E1); reflexivity|destruct N1]).
Qed.

Lemma danswer_reopen s t seen fd c F mode : dir_open_flags F -> tget t fd = Some c -> (c < NPB s)%nat -> is_dir s c = true ->
  danswer {| ds := s; dt := t; dseen := seen |} (Openat fd [DOT] F mode) =
  ({| ds := s; dt := (fresh t, c) :: t; dseen := seen |}, RFd (fresh t)).
Proof.
  intros HF Hfd Hlt Hd. rewrite (danswer_static rp) by exact (proj1 (proj2 (proj2 (proj2 HF)))). cbn [ds dt dseen seen_after].
  unfold answer. rewrite (sem_open_dir rp s t fd c [DOT] F mode HF Hfd Hlt eq_refl eq_refl eq_refl).
  unfold mk_open, open1. rewrite Hd. cbn [negb]. change (is_dot [DOT]) with true. cbv iota. rewrite Hd. reflexivity.
Qed.

Definition closing (st : dst) (fd : Z) : dst := {| ds := ds st; dt := tdel (dt st) fd; dseen := zrem fd (dseen st) |}.

Lemma ra_entries_cons rec g dfd n rest saw st :
  drun st (ra_entries rec (S g) dfd (n :: rest) saw) =
  if dot_or_dotdot n then drun st (ra_entries rec g dfd rest saw) else
  match drun st (rec n) with
  | DDone st' r => match ignore_enoent r with
                   | Ok _ => drun st' (ra_entries rec g dfd rest true)
                   | Err e => DDone (closing st' dfd) (Err e)
                   end
  | DPanicked x => DPanicked x
  | DNoFuel => DNoFuel
  end.
Proof.
  cbn [ra_entries]. destruct (dot_or_dotdot n); [reflexivity|]. rewrite drun_bind.
  destruct (drun st (rec n)) as [[s' t' seen'] r| |]; try reflexivity. destruct (ignore_enoent r); reflexivity.
Qed.

Lemma ra_entries_nil rec g dfd saw s t seen c : tget t dfd = Some c -> (c < NPB s)%nat -> is_dir s c = true ->
  drun {| ds := s; dt := t; dseen := seen |} (ra_entries rec (S g) dfd [] saw) =
  if zmem dfd seen then DDone (closing {| ds := s; dt := t; dseen := seen |} dfd) (Ok saw)
  else drun {| ds := s; dt := t; dseen := dfd :: seen |} (ra_entries rec g dfd ([DOT] :: [DOT; DOT] :: dir_names s c) saw).
Proof.
  intros Hfd Hlt Hd. cbn [ra_entries Dyn.drun]. unfold Dyn.danswer. cbn [Dyn.dsem ds dt dseen].
  rewrite (tree_obj_get s t dfd c Hfd Hlt), Hd. cbn [negb]. destruct (zmem dfd seen); rewrite reloc_same; reflexivity.
Qed.

Lemma ra_rounds_step scan fin subdir g s t seen c : tget t subdir = Some c -> (c < NPB s)%nat -> is_dir s c = true ->
  drun {| ds := s; dt := t; dseen := seen |} (ra_rounds scan fin subdir (S g)) =
  match drun {| ds := s; dt := (fresh t, c) :: t; dseen := seen |} (scan (fresh t)) with
  | DDone st' (Ok true) => drun st' (ra_rounds scan fin subdir g)
  | DDone st' (Ok false) => drun st' fin
  | DDone st' (Err e) => DDone (closing st' subdir) (Err e)
  | DPanicked x => DPanicked x
  | DNoFuel => DNoFuel
  end.
Proof.
  intros Hfd Hlt Hd. cbn [ra_rounds Dyn.drun]. unfold Dyn.danswer at 1. cbn [Dyn.dsem ds dt dseen].
  rewrite (tree_obj_get s t subdir c Hfd Hlt), Hd, reloc_same.
  change (z2n (as_num (RNum (Z.of_N GETFL_DIR)))) with GETFL_DIR. cbn [Dyn.drun].
  rewrite (danswer_reopen s t seen subdir c _ 0 reopen_dir_open Hfd Hlt Hd), as_fd_fresh, drun_bind.
  destruct (drun _ (scan (fresh t))) as [[s' t' seen'] [[|]|e]| |]; reflexivity.
Qed.

(* the scan of one sub-directory [c] of the tree [s0] remove_all started on, with fuel [f] for the entries ([IH] is
   remove_all_dyn at [f]); the trees it runs on are [s0] with entries removed *)
Section SCAN.
Variable f : nat.
Hypothesis IH : forall s t seen dirfd d name,
  ents_ok s -> seen_ok t seen -> tget t dirfd = Some d -> (d < NPB s)%nat ->
  has_nul name = false -> is_nil name = false ->
  drun {| ds := s; dt := t; dseen := seen |} (remove_all fz f dirfd name) =
  match rm_all f s d name with
  | None => DNoFuel
  | Some (s', r) => DDone {| ds := s'; dt := t; dseen := seen |} r
  end.
Variable s0 : fs.
Hypothesis Hok0 : ents_ok s0.
Variable c : nat.
Hypothesis Hc : (c < NPB s0)%nat.
Hypothesis Hcd : is_dir s0 c = true.

Lemma scan_dir s : shrinks s0 s -> (c < NPB s)%nat /\ is_dir s c = true.
Proof. intro Hs. split; [unfold NPB; rewrite (proj1 Hs); exact Hc|rewrite (is_dir_shrinks _ _ c Hs); exact Hcd]. Qed.

(* one pass over the stream [dfd], the entries removed through the descriptor [sub] *)
Lemma ra_entries_dyn t sub dfd : tget t sub = Some c -> tget t dfd = Some c -> forall g s seen buf saw,
  shrinks s0 s -> seen_ok t seen -> Forall (fun n => dot_or_dotdot n = true \/ Dyn.plain n = true) buf ->
  drun {| ds := s; dt := t; dseen := seen |} (ra_entries (remove_all fz f sub) g dfd buf saw) =
  match rm_entries (fun s3 n => rm_all f s3 c n) g s c buf (zmem dfd seen) saw with
  | None => DNoFuel
  | Some (s', r) => DDone {| ds := s'; dt := tdel t dfd; dseen := zrem dfd seen |} r
  end.
Proof.
  intros Hsub Hdfd. induction g as [|g IHg]; intros s seen buf saw Hs Hso Hbuf; [reflexivity|]. cbn [rm_entries].
  destruct (scan_dir s Hs) as [Hlt Hd]. destruct buf as [|n rest].
  - rewrite (ra_entries_nil _ g dfd saw s t seen c Hdfd Hlt Hd). destruct (zmem dfd seen) eqn:Ez; [reflexivity|].
    rewrite (IHg s (dfd :: seen) _ saw Hs (seen_ok_read _ _ _ _ Hdfd Hso)).
    + cbn [zmem zrem]. rewrite Z.eqb_refl. reflexivity.
    + constructor; [left; reflexivity|]. constructor; [left; reflexivity|]. apply dir_names_plain. exact (ents_ok_shrinks _ _ Hs Hok0).
  - rewrite ra_entries_cons. destruct (dot_or_dotdot n) eqn:Edd; [exact (IHg _ _ _ _ Hs Hso (Forall_inv_tail Hbuf))|].
    destruct (Forall_inv Hbuf) as [Hn|Hn]; [congruence|]. destruct (plain_facts _ Hn) as (Hnn & _ & _ & _ & Hnu).
    rewrite (IH s t seen sub c n (ents_ok_shrinks _ _ Hs Hok0) Hso Hsub Hlt Hnu Hnn).
    destruct (rm_all f s c n) as [[s1 r1]|] eqn:Er; [|reflexivity]. destruct (ignore_enoent r1) as [u|e]; [|reflexivity].
    exact (IHg _ _ _ _ (shrinks_trans _ _ _ Hs (rm_all_shrinks _ _ _ _ _ _ Er)) Hso (Forall_inv_tail Hbuf)).
Qed.

(* a whole pass, over a fresh stream *)
Lemma ra_scan_dyn t sub s seen : tget t sub = Some c -> shrinks s0 s -> seen_ok t seen ->
  drun {| ds := s; dt := (fresh t, c) :: t; dseen := seen |} (ra_entries (remove_all fz f sub) f (fresh t) [] false) =
  match rm_scan f c s with None => DNoFuel | Some (s', r) => DDone {| ds := s'; dt := t; dseen := seen |} r end.
Proof.
  intros Hsub Hs Hso.
  rewrite (ra_entries_dyn _ sub (fresh t) (tget_new_old t c sub c Hsub) (tget_new t c) f s seen [] false Hs (seen_ok_cons _ _ _ _ Hso) (Forall_nil _)).
  rewrite (seen_ok_fresh _ _ Hso). destruct (close_fresh t seen c Hso) as [-> ->]. reflexivity.
Qed.

(* the rounds, then the removal of the directory itself through [dirfd] *)
Lemma ra_rounds_dyn t dirfd d name sub : tget t sub = Some c -> tget t dirfd = Some d -> (d < NPB s0)%nat -> has_nul name = false ->
  forall g s seen, shrinks s0 s -> seen_ok t seen ->
  drun {| ds := s; dt := t; dseen := seen |}
    (ra_rounds (fun dfd => ra_entries (remove_all fz f sub) f dfd [] false)
               (r <- remove_inode fz dirfd name ;; close sub ;;; Ret (ignore_enoent r)) sub g) =
  match rm_rounds (rm_scan f c) (rm_fin d name) g s with
  | None => DNoFuel
  | Some (s', r) => DDone {| ds := s'; dt := tdel t sub; dseen := zrem sub seen |} r
  end.
Proof.
  intros Hsub Hd Hlt Hnul. induction g as [|g IHg]; intros s seen Hs Hso; [reflexivity|]. cbn [rm_rounds].
  destruct (scan_dir s Hs) as [Hclt Hcdir]. rewrite (ra_rounds_step _ _ sub g s t seen c Hsub Hclt Hcdir), (ra_scan_dyn t sub s seen Hsub Hs Hso).
  destruct (rm_scan f c s) as [[s1 [[|]|e]]|] eqn:Es; try reflexivity; pose proof (shrinks_trans _ _ _ Hs (rm_scan_shrinks _ _ _ _ _ Es)) as Hs1.
  - exact (IHg s1 seen Hs1 Hso).
  - assert (Hlt1 : (d < NPB s1)%nat) by (unfold NPB; rewrite (proj1 Hs1); exact Hlt).
    rewrite drun_bind, (drun_remove_inode s1 t seen dirfd d name Hd Hlt1 Hnul), drun_bind, drun_close_any, rm_fin_eq. reflexivity.
Qed.

End SCAN.

Theorem remove_all_dyn : forall fuel s t seen dirfd d name,
  ents_ok s -> seen_ok t seen -> tget t dirfd = Some d -> (d < NPB s)%nat ->
  has_nul name = false -> is_nil name = false ->
  drun {| ds := s; dt := t; dseen := seen |} (remove_all fz fuel dirfd name) =
  match rm_all fuel s d name with
  | None => DNoFuel
  | Some (s', r) => DDone {| ds := s'; dt := t; dseen := seen |} r
  end.
Proof.
  induction fuel as [|f IH]; intros s t seen dirfd d name Hok Hso Hd Hlt Hnul Hnil; [reflexivity|].
  cbn [remove_all]. rewrite refuses_dots.
  pose proof (drun_remove_inode s t seen dirfd d name Hd Hlt Hnul) as Hrun.
  pose proof (rm_inode_shrinks s d name) as Hs1.
  destruct (rm_all_cases f s d name) as [Hsl|Hsl Hdots|u Hsl Hdots Hi|e0 e Hsl Hdots Hi Ho|e0 c Hsl Hdots Hi Ho];
    rewrite Hsl; [reflexivity|rewrite Hdots; reflexivity|rewrite Hdots, drun_bind, Hrun, Hi; reflexivity| |];
    rewrite Hdots, drun_bind, Hrun, Hi; set (s1 := fst (rm_inode s d name)) in *;
    assert (Hlt1 : (d < NPB s1)%nat) by (unfold NPB; rewrite (proj1 Hs1); exact Hlt);
    rewrite drun_bind, drun_os, (drun_open_dir rp fz Hfz s1 t seen dirfd d name _ 0 remove_dir_open Hd Hlt1 (plain_of name Hnil Hsl Hnul Hdots)), Ho.
  - cbn [Dyn.drun]. unfold errno_is. cbn [kind_errno opt_n_eqb]. destruct (N.eqb e ENOENT); reflexivity.
  - (* the directory [c] is open as [fresh t] *)
    pose proof (ents_ok_shrinks _ _ Hs1 Hok) as Hok1. destruct (mk_open_inl_dir _ _ _ _ Hdots Ho) as [Hl Hcdir].
    rewrite (ra_rounds_dyn f IH s1 Hok1 c (lookup_lt _ _ _ _ Hok1 Hl) Hcdir _ dirfd d name (fresh t)
               (tget_new t c) (tget_new_old t c dirfd d Hd) Hlt1 Hnul f s1 seen (shrinks_refl s1) (seen_ok_cons _ _ _ _ Hso)).
    destruct (close_fresh t seen c Hso) as [-> ->]. reflexivity.
Qed.

End RM.

(* [e] is an entry of directory [c], or of a directory reached from [c] by descending through
   entries that are real directories (a link is not a directory: never through a link) *)
Inductive beneath (s : fs) : nat -> ent -> Prop :=
| bn_here c e : In e (ents s) -> ent_dir e = c -> beneath s c e
| bn_deep c n c' e : In (c, n, c') (ents s) -> is_dir s c' = true -> beneath s c' e -> beneath s c e.

(* [e] is the entry (d, name) or lies beneath the directory under that name *)
Definition under (s : fs) (d : nat) (name : bytes) (e : ent) : Prop :=
  (ent_dir e = d /\ beq (ent_name e) name = true) \/
  (exists n' c, In (d, n', c) (ents s) /\ beq name n' = true /\ is_dir s c = true /\ beneath s c e).

Definition only_under (s0 s s' : fs) (d : nat) (name : bytes) : Prop :=
  forall e, In e (ents s) -> ~ In e (ents s') -> under s0 d name e.

Lemma ent_dec (x y : ent) : {x = y} + {x <> y}.
Proof. decide equality; [apply Nat.eq_dec|decide equality; [apply (list_eq_dec N.eq_dec)|apply Nat.eq_dec]]. Qed.

Definition gone (s s' : fs) (P : ent -> Prop) : Prop := forall e, In e (ents s) -> ~ In e (ents s') -> P e.

Lemma gone_refl s P : gone s s P.
Proof. intros e H N. contradiction. Qed.

Lemma gone_trans s s1 s' P : gone s s1 P -> gone s1 s' P -> gone s s' P.
Proof. intros H1 H2 e He Hn. destruct (in_dec ent_dec e (ents s1)) as [Hi|Hi]; [exact (H2 e Hi Hn)|exact (H1 e He Hi)]. Qed.

(* on the trees below [s0]: entries only disappear, and those that do satisfy [P] *)
Definition below (s0 : fs) (P : ent -> Prop) (s s' : fs) : Prop := shrinks s0 s -> shrinks s s' /\ gone s s' P.

Lemma below_refl s0 P s : below s0 P s s.
Proof. intros _. split; [apply shrinks_refl|apply gone_refl]. Qed.

Lemma below_trans s0 P a b c : below s0 P a b -> below s0 P b c -> below s0 P a c.
Proof.
  intros H1 H2 H0. destruct (H1 H0) as [S1 G1]. destruct (H2 (shrinks_trans _ _ _ H0 S1)) as [S2 G2].
  split; [exact (shrinks_trans _ _ _ S1 S2)|exact (gone_trans _ _ _ _ G1 G2)].
Qed.

Lemma below_impl s0 (P Q : ent -> Prop) s s' : (forall e, In e (ents s0) -> P e -> Q e) -> below s0 P s s' -> below s0 Q s s'.
Proof. intros HPQ H Hs. destruct (H Hs) as [S G]. split; [exact S|]. intros e He Hn. exact (HPQ e (proj2 (proj2 Hs) e He) (G e He Hn)). Qed.

Lemma rm_inode_below s0 s d n : below s0 (under s0 d n) s (fst (rm_inode s d n)).
Proof.
  apply (rm_inode_R _ (below_refl s0 _)). intros fl s' H _. split; [exact (unlink_sem_shrinks _ _ _ _ _ H)|].
  destruct (unlink_sem_unit _ _ _ _ _ H) as [-> _]. intros e He Hn. left. exact (del_ent_in _ _ _ _ He Hn).
Qed.

(* the per-level lemmas of the Closure section, at [below s0 (under s0 d name)]: the guard [shrinks s0 s ->] inside
   [below] is what makes it transitive (the middle tree has to be one of those below [s0]) *)
Theorem rm_all_only : forall fuel s0 s d name s' r, shrinks s0 s -> rm_all fuel s d name = Some (s', r) ->
  only_under s0 s s' d name.
Proof.
  assert (G : forall fuel s0 d name s s' r, rm_all fuel s d name = Some (s', r) -> below s0 (under s0 d name) s s').
  2:{ intros fuel s0 s d name s' r Hs H. exact (proj2 (G fuel s0 d name s s' r H Hs)). }
  induction fuel as [|f IH]; intros s0 d name s s' r; [discriminate|].
  pose proof (rm_inode_below s0 s d name) as Hi.
  destruct (rm_all_cases f s d name) as [_|_ _|u _ _ _|e0 e _ _ _ _|e0 c _ Hdots _ Ho]; intro H;
    [inversion H; subst; apply below_refl|inversion H; subst; apply below_refl|inversion H; subst; exact Hi|inversion H; subst; exact Hi|].
  apply (below_trans _ _ _ _ _ Hi). intro Hs01.
  (* the directory under that name, as an entry of the initial tree: what lies beneath it lies under the name *)
  destruct (mk_open_inl_dir _ _ _ _ Hdots Ho) as [El Hdir]. destruct (FSProofs.find_ent_spec _ _ _ _ El) as (n' & Hin & Hb).
  assert (Hlift : forall x, In x (ents s0) -> beneath s0 c x -> under s0 d name x).
  { intros x _ Hbe. right. exists n', c. split; [exact (proj2 (proj2 Hs01) _ Hin)|].
    split; [exact Hb|]. split; [rewrite <- (is_dir_shrinks _ _ c Hs01); exact Hdir|exact Hbe]. }
  revert Hs01. eapply (rm_rounds_R _ (below_trans s0 _)); [| |exact H].
  - intros s2 s3 r3 Hsc. apply (below_impl s0 _ _ _ _ Hlift). revert Hsc.
    apply (rm_entries_R _ (below_refl s0 _) (below_trans s0 _)). intros s4 n s5 r5 Hr.
    apply (below_impl s0 (under s0 c n)); [|exact (IH s0 c n s4 s5 r5 Hr)].
    intros x Hx [[Hxd _]|(n2 & c2 & Hin2 & _ & Hdir2 & Hb2)]; [apply bn_here; assumption|eapply bn_deep; eassumption].
  - intro s2. rewrite rm_fin_eq. apply rm_inode_below.
Qed.

Lemma rm_rounds_ok scan fin : forall g s s' u, rm_rounds scan fin g s = Some (s', Ok u) -> exists s2, fin s2 = (s', Ok u).
Proof.
  induction g as [|g IH]; intros s s' u H; cbn [rm_rounds] in H; [discriminate|].
  destruct (scan s) as [[s1 [[|]|e0]]|]; try discriminate.
  - eapply IH. exact H.
  - exists s1. congruence.
Qed.

Theorem rm_all_gone : forall fuel s d name s', Dyn.plain name = true ->
  rm_all fuel s d name = Some (s', Ok tt) -> lookup s' d name = None.
Proof.
  intros [|f] s d name s' Hp; [discriminate|].
  pose proof (rm_inode_gone s d name Hp) as Hg.
  destruct (rm_all_cases f s d name) as [_|_ _|[] _ _ Hi|e0 e _ Hdots _ Ho|e0 c _ _ _ _]; intro H; try discriminate.
  - inversion H; subst. exact (Hg Hi).
  - destruct (N.eqb_spec e ENOENT) as [->|_]; [|discriminate]. inversion H; subst. clear H.
    rewrite (mk_open_eq _ _ _ (plain_no_dots _ Hp)) in Ho. destruct (negb (is_dir (fst (rm_inode s d name)) d)); [discriminate|].
    destruct (lookup (fst (rm_inode s d name)) d name) as [c'|]; [|reflexivity]. destruct (is_dir _ c'); discriminate.
  - destruct (rm_rounds_ok _ _ _ _ _ _ H) as (s2 & Hfin). rewrite rm_fin_eq in Hfin. inversion Hfin as [[H1 H2]].
    exact (rm_inode_gone s2 d name Hp H2).
Qed.
