(* DynMkdir.v -- C12 on the dynamic kernel (theories/Dyn.v): the creation loop of mkdir_all.
   1. What the pure function [mk_spec] does to ANY tree: the resulting tree is the old one plus
      new directories only ([extends]: nothing removed, nothing modified, every new object a
      directory entered under a name that did not exist) -- also when it fails --; on success
      every component now exists and the result is the plain descent along them
      ([descend_dirs s' o parts = Some c]).
   2. [mk_parts_dyn]: executing the loop (mkdirat / open O_NOFOLLOW|O_DIRECTORY / close per
      component) from a descriptor open on directory [o] computes exactly [mk_spec] of the tree:
      same resulting tree, same object behind the returned descriptor, same errno; every other
      descriptor stays as it was. *)
From PV Require Import Dyn StaticProofs StaticBal BeneathProofs DynProofs.

Definition shift (pb k o : nat) : nat := if Nat.leb pb o then (o + k)%nat else o.

Lemma tfind_reloc pb pb' t x : tfind (reloc pb pb' t) x = option_map (shift pb (pb' - pb)) (tfind t x).
Proof.
  unfold reloc. induction t as [|[f o] t IH]; cbn [map tfind fst snd option_map]; [reflexivity|].
  destruct (Z.eqb f x); [reflexivity|exact IH].
Qed.

Lemma tget_reloc pb pb' t x : tget (reloc pb pb' t) x = option_map (shift pb (pb' - pb)) (tget t x).
Proof. unfold tget. destruct (Z.ltb x 0); [reflexivity|apply tfind_reloc]. Qed.

Lemma fresh_reloc pb pb' t : fresh (reloc pb pb' t) = fresh t.
Proof. unfold reloc, fresh. induction t as [|[f o] t IH]; cbn [map fold_right fst]; [reflexivity|]. rewrite IH. reflexivity. Qed.

Lemma indom_reloc pb pb' t x : indom (reloc pb pb' t) x <-> indom t x.
Proof. unfold indom. rewrite tfind_reloc. destruct (tfind t x); cbn [option_map]; split; intro H; try exact H; try discriminate; intro E; discriminate. Qed.

Lemma shift_small pb k o : (o < pb)%nat -> shift pb k o = o.
Proof. intro H. unfold shift. destruct (Nat.leb_spec pb o); [lia|reflexivity]. Qed.

(* a descriptor was opened and the one it was opened through closed: what else is open was open before *)
Lemma indom_del_cons t n o cur x : indom (tdel ((n, o) :: t) cur) x -> x <> n -> indom t x /\ x <> cur.
Proof.
  intros H Hn. apply StaticBal.indom_del in H. destruct H as [Hc H]. apply indom_cons in H.
  destruct H as [ -> |H]; [contradiction|split; assumption].
Qed.

(* open(dir, name, O_NOFOLLOW|O_DIRECTORY): the directory under that name *)
Definition mk_open (s : fs) (o : nat) (part : bytes) : nat + N :=
  match open1 s o part with
  | inl c => if is_dir s c then inl c else inr ENOTDIR
  | inr e => inr e
  end.

(* mkdirat(dir, name): the tree afterwards, EEXIST tolerated *)
Definition mk_dir (s : fs) (o : nat) (part : bytes) : fs + N :=
  match create_sem s o part FSModel.KDir with
  | EUnit s' => inl s'
  | EErr e => if N.eqb e EEXIST then inl s else inr e
  | _ => inr ENOSYS
  end.

Fixpoint mk_spec (s : fs) (o : nat) (ps : list bytes) : fs * (nat + N) :=
  match ps with
  | [] => (s, inl o)
  | part :: rest =>
      match mk_dir s o part with
      | inr e => (s, inr e)
      | inl s1 => match mk_open s1 o part with
                  | inl c => mk_spec s1 c rest
                  | inr e => (s1, inr e)
                  end
      end
  end.

Lemma mk_dir_plain s o p : Dyn.plain p = true ->
  mk_dir s o p = if negb (is_dir s o) then inr ENOTDIR else if too_long p then inr ENAMETOOLONG
                 else match lookup s o p with Some _ => inl s | None => inl (FSModel.add_obj s o p FSModel.KDir) end.
Proof.
  intro Hp. unfold mk_dir. rewrite (create_sem_plain s o p _ Hp).
  destruct (negb (is_dir s o)); [reflexivity|]. destruct (too_long p); [reflexivity|]. destruct (lookup s o p); reflexivity.
Qed.

Lemma mk_open_eq s d n : dot_or_dotdot n = false ->
  mk_open s d n = if negb (is_dir s d) then inr ENOTDIR else
                  match lookup s d n with
                  | Some c => if is_dir s c then inl c else inr ENOTDIR
                  | None => inr (FSModel.name_err n)
                  end.
Proof.
  unfold dot_or_dotdot. intro H. apply orb_false_iff in H. destruct H as [Hd Hdd].
  unfold mk_open, open1. rewrite Hd, Hdd. destruct (negb (is_dir s d)); [reflexivity|]. destruct (lookup s d n); reflexivity.
Qed.

Lemma mk_open_inl_dir s d name c : dot_or_dotdot name = false -> mk_open s d name = inl c -> lookup s d name = Some c /\ is_dir s c = true.
Proof.
  intro Hd. rewrite (mk_open_eq _ _ _ Hd). destruct (negb (is_dir s d)); [discriminate|].
  destruct (lookup s d name) as [c'|]; [|discriminate]. destruct (is_dir s c') eqn:E; intro H; inversion H; subst. split; [reflexivity|exact E].
Qed.

(* the tree invariant the loop maintains: objects and parents numbered alike, lookups and
   parents stay inside *)
Definition closed2 (s : fs) : Prop := closed s /\ length (parents s) = length (kinds s).

Lemma closed2_root s : closed2 s -> (ROOT < length (kinds s))%nat.
Proof. intros [(H0 & _) _]. exact H0. Qed.

Lemma closed2_lookup_lt s d n c : closed2 s -> lookup s d n = Some c -> (c < length (kinds s))%nat.
Proof. intros [(_ & Hlk & _) _]. apply Hlk. Qed.

Lemma is_dir_lt s o : is_dir s o = true -> (o < length (kinds s))%nat.
Proof.
  unfold FSModel.is_dir, FSModel.kind_of. intro H. destruct (Nat.lt_ge_cases o (length (kinds s))) as [Hlt|Hge]; [exact Hlt|].
  rewrite nth_overflow in H by exact Hge. discriminate.
Qed.

Lemma find_ent_app es es' d n : FSModel.find_ent (es ++ es') d n =
  match FSModel.find_ent es d n with Some c => Some c | None => FSModel.find_ent es' d n end.
Proof.
  induction es as [|[[d' n'] c] es IH]; cbn [app FSModel.find_ent]; [reflexivity|].
  destruct (Nat.eqb d d' && beq n n'); [reflexivity|exact IH].
Qed.

Lemma beq_refl x : beq x x = true.
Proof. exact (PathProofs.beq_refl x). Qed.

Lemma lookup_add_obj s d n k d' n' :
  lookup (FSModel.add_obj s d n k) d' n' =
  match lookup s d' n' with Some c => Some c | None => if Nat.eqb d' d && beq n' n then Some (length (kinds s)) else None end.
Proof. unfold FSModel.lookup, FSModel.add_obj. cbn [FSModel.ents]. rewrite find_ent_app. cbn [FSModel.find_ent]. reflexivity. Qed.

Lemma lookup_add_obj_new s d n k : lookup s d n = None -> lookup (FSModel.add_obj s d n k) d n = Some (length (kinds s)).
Proof. intro H. rewrite lookup_add_obj, H, Nat.eqb_refl, PathProofs.beq_refl. reflexivity. Qed.

Lemma kinds_add_obj s d n k : length (kinds (FSModel.add_obj s d n k)) = S (length (kinds s)).
Proof. unfold FSModel.add_obj. cbn [FSModel.kinds]. rewrite app_length. cbn [length]. lia. Qed.

Lemma kind_add_obj_old s d n k o : (o < length (kinds s))%nat -> FSModel.kind_of (FSModel.add_obj s d n k) o = FSModel.kind_of s o.
Proof. intro H. unfold FSModel.kind_of, FSModel.add_obj. cbn [FSModel.kinds]. apply app_nth1. exact H. Qed.

Lemma kind_add_obj_new s d n k : FSModel.kind_of (FSModel.add_obj s d n k) (length (kinds s)) = k.
Proof. unfold FSModel.kind_of, FSModel.add_obj. cbn [FSModel.kinds]. rewrite app_nth2 by lia. rewrite Nat.sub_diag. reflexivity. Qed.

Lemma closed2_add_obj s d n k : closed2 s -> (d < length (kinds s))%nat -> closed2 (FSModel.add_obj s d n k).
Proof.
  intros [(H0 & Hlk & Hpar) Hlen] Hd. unfold closed2, closed, PB in *. rewrite (kinds_add_obj s d n k).
  split; [split; [apply Nat.lt_0_succ|split]|].
  - intros d' n' c Hl. rewrite lookup_add_obj in Hl.
    destruct (lookup s d' n') eqn:E; [injection Hl as <-; exact (Nat.lt_lt_succ_r _ _ (Hlk _ _ _ E))|].
    destruct (Nat.eqb d' d && beq n' n); [injection Hl as <-; apply Nat.lt_succ_diag_r|discriminate].
  - (* an old object keeps its parent, the new one lies in [d] *)
    intros o Ho. unfold FSModel.parent_of, FSModel.add_obj. cbn [FSModel.parents].
    destruct (proj1 (Nat.lt_eq_cases _ _) (proj1 (Nat.lt_succ_r _ _) Ho)) as [Ho'| -> ].
    + rewrite app_nth1 by (rewrite Hlen; exact Ho'). exact (Nat.lt_lt_succ_r _ _ (Hpar o Ho')).
    + rewrite <- Hlen, app_nth2, Nat.sub_diag by apply le_n. rewrite Hlen. exact (Nat.lt_lt_succ_r _ _ Hd).
  - unfold FSModel.add_obj. cbn [FSModel.parents]. rewrite app_length, Hlen. apply Nat.add_1_r.
Qed.

(* [s'] is [s] plus new directories: nothing removed, nothing modified *)
Inductive extends : fs -> fs -> Prop :=
| ext_refl s : extends s s
| ext_add s s' d n : extends s s' -> is_dir s' d = true -> lookup s' d n = None ->
                     extends s (FSModel.add_obj s' d n FSModel.KDir).

Lemma extends_trans s s1 s2 : extends s s1 -> extends s1 s2 -> extends s s2.
Proof. intros H1 H2. induction H2 as [|s1 s2 d n _ IH Hd Hl]; [exact H1|]. apply ext_add; [apply IH; exact H1|exact Hd|exact Hl]. Qed.

(* everything that was there is still there, unchanged *)
Lemma extends_frame s s' : extends s s' ->
  (forall o, (o < length (kinds s))%nat -> FSModel.kind_of s' o = FSModel.kind_of s o) /\
  (forall d n c, lookup s d n = Some c -> lookup s' d n = Some c) /\
  (length (kinds s) <= length (kinds s'))%nat /\
  (exists new, ents s' = ents s ++ new /\ Forall (fun e => (length (kinds s) <= ent_obj e)%nat /\ FSModel.kind_of s' (ent_obj e) = FSModel.KDir) new).
Proof.
  induction 1 as [s|s s' d n _ IH Hd Hl].
  - split; [reflexivity|]. split; [intros d n c H; exact H|]. split; [apply le_n|].
    exists []. rewrite app_nil_r. split; [reflexivity|constructor].
  - destruct IH as (Hk & Hlk & Hlen & new & Hents & Hnew). split; [|split; [|split]].
    + intros o Ho. rewrite (kind_add_obj_old _ _ _ _ _ (Nat.lt_le_trans _ _ _ Ho Hlen)). apply Hk. exact Ho.
    + intros d' n' c Hc. rewrite lookup_add_obj, (Hlk _ _ _ Hc). reflexivity.
    + rewrite kinds_add_obj. exact (Nat.le_trans _ _ _ Hlen (Nat.le_succ_diag_r _)).
    + exists (new ++ [(d, n, length (kinds s'))]). split.
      * unfold FSModel.add_obj. cbn [FSModel.ents]. rewrite Hents, app_assoc. reflexivity.
      * apply Forall_app. split.
        -- eapply Forall_impl; [|exact Hnew]. intros e [He1 He2]. split; [exact He1|].
           (* a directory is an object of the tree *)
           rewrite (kind_add_obj_old _ _ _ _ _ (is_dir_lt s' (ent_obj e) ltac:(unfold FSModel.is_dir; rewrite He2; reflexivity))). exact He2.
        -- constructor; [|constructor]. cbn [ent_obj snd]. split; [exact Hlen|apply kind_add_obj_new].
Qed.

Lemma extends_len s s' : extends s s' -> (NPB s <= NPB s')%nat.
Proof. intro H. apply (extends_frame _ _ H). Qed.

Lemma is_dir_extends s s' o : extends s s' -> is_dir s o = true -> is_dir s' o = true.
Proof.
  intros He Hd. destruct (extends_frame _ _ He) as (Hk & _). unfold FSModel.is_dir in *. rewrite (Hk o (is_dir_lt _ _ Hd)). exact Hd.
Qed.

Lemma extends_closed2 s s' : extends s s' -> closed2 s -> closed2 s'.
Proof. induction 1 as [s|s s' d n _ IH Hd Hl]; intro Hc; [exact Hc|]. apply closed2_add_obj; [apply IH; exact Hc|apply is_dir_lt; exact Hd]. Qed.

(* the loop's own step is one of the steps of [extends] *)
Lemma mk_dir_ext s o p s1 : mk_dir s o p = inl s1 -> extends s s1.
Proof.
  unfold mk_dir, create_sem. intro H.
  destruct (is_dir s o) eqn:Ed; cbn [negb] in H; [|discriminate].
  destruct (is_nil p); [discriminate|].
  destruct (has_slash p || has_nul p); [discriminate|].
  destruct (is_dot p || is_dotdot p); [inversion H; apply ext_refl|].
  destruct (too_long p); [discriminate|].
  destruct (lookup s o p) as [c|] eqn:El; inversion H; subst; [apply ext_refl|].
  apply ext_add; [apply ext_refl|exact Ed|exact El].
Qed.

Fixpoint descend_dirs (s : fs) (o : nat) (ps : list bytes) : option nat :=
  match ps with
  | [] => Some o
  | p :: rest => match lookup s o p with
                 | Some c => if is_dir s c then descend_dirs s c rest else None
                 | None => None
                 end
  end.

Lemma descend_dirs_cons s o p rest c : lookup s o p = Some c -> is_dir s c = true -> descend_dirs s o (p :: rest) = descend_dirs s c rest.
Proof. intros Hl Hd. cbn [descend_dirs]. rewrite Hl, Hd. reflexivity. Qed.

Lemma descend_dirs_extends s s' : extends s s' -> forall ps o c,
  descend_dirs s o ps = Some c -> descend_dirs s' o ps = Some c.
Proof.
  intros He. destruct (extends_frame _ _ He) as (_ & Hlk & _ & _).
  induction ps as [|p rest IH]; intros o c H; [exact H|]. cbn [descend_dirs] in H.
  destruct (lookup s o p) as [c'|] eqn:El; [|discriminate]. destruct (is_dir s c') eqn:Ed; [|discriminate].
  rewrite (descend_dirs_cons s' o p rest c' (Hlk _ _ _ El) (is_dir_extends _ _ _ He Ed)).
  exact (IH c' c H).
Qed.

Theorem mk_spec_post : forall ps s o, closed2 s -> (o < length (kinds s))%nat -> Forall (fun p => Dyn.plain p = true) ps ->
  extends s (fst (mk_spec s o ps)) /\ closed2 (fst (mk_spec s o ps)) /\
  match snd (mk_spec s o ps) with
  | inl c => descend_dirs (fst (mk_spec s o ps)) o ps = Some c /\ (is_dir s o = true -> is_dir (fst (mk_spec s o ps)) c = true)
  | inr _ => True
  end.
Proof.
  induction ps as [|part rest IH]; intros s o Hc Ho Hps; cbn [mk_spec fst snd].
  - split; [constructor|]. split; [exact Hc|]. split; [reflexivity|intro H; exact H].
  - inversion Hps as [|? ? Hp Hrest]; subst.
    destruct (mk_dir s o part) as [s1|e] eqn:Em; cbn [fst snd]; [|split; [constructor|split; [exact Hc|exact I]]].
    pose proof (mk_dir_ext _ _ _ _ Em) as He1. pose proof (extends_closed2 _ _ He1 Hc) as Hc1.
    destruct (mk_open s1 o part) as [c|e] eqn:Eo; cbn [fst snd]; [|split; [exact He1|split; [exact Hc1|exact I]]].
    destruct (mk_open_inl_dir _ _ _ _ (plain_no_dots _ Hp) Eo) as (Hl1 & Hd1). pose proof (closed2_lookup_lt _ _ _ _ Hc1 Hl1) as Hclt.
    destruct (IH s1 c Hc1 Hclt Hrest) as (He2 & Hc2 & Hpost).
    split; [eapply extends_trans; eassumption|]. split; [exact Hc2|].
    destruct (snd (mk_spec s1 c rest)) as [c2|e2]; [|exact I].
    destruct Hpost as [Hdesc Hdir]. split; [|intros _; apply Hdir; exact Hd1].
    destruct (extends_frame _ _ He2) as (_ & Hlk & _ & _).
    rewrite (descend_dirs_cons _ o part rest c (Hlk _ _ _ Hl1) (is_dir_extends _ _ _ He2 Hd1)). exact Hdesc.
Qed.

Definition rel (s s' : fs) (ob : nat) : nat := shift (NPB s) (NPB s' - NPB s) ob.

Lemma rel_refl s ob : rel s s ob = ob.
Proof. unfold rel, shift. rewrite Nat.sub_diag, Nat.add_0_r. destruct (Nat.leb (NPB s) ob); reflexivity. Qed.

Lemma rel_trans s s1 s2 ob : (NPB s <= NPB s1)%nat -> (NPB s1 <= NPB s2)%nat -> rel s1 s2 (rel s s1 ob) = rel s s2 ob.
Proof.
  unfold rel. generalize (NPB s) (NPB s1) (NPB s2). intros a b c Hab Hbc.
  destruct (Nat.le_exists_sub _ _ Hab) as (k1 & -> & _). destruct (Nat.le_exists_sub _ _ Hbc) as (k2 & -> & _).
  rewrite !Nat.add_sub, Nat.add_assoc, Nat.add_sub. unfold shift.
  destruct (Nat.leb_spec a ob) as [Hle|Hlt].
  - rewrite (Nat.add_comm k1 a), (proj2 (Nat.leb_le _ _) (proj1 (Nat.add_le_mono_r _ _ k1) Hle)).
    rewrite <- Nat.add_assoc, (Nat.add_comm k1 k2). reflexivity.
  - rewrite (proj2 (Nat.leb_gt _ _) (Nat.lt_le_trans _ _ _ Hlt (Nat.le_add_l a k1))). reflexivity.
Qed.

(* the flag words with which a directory is opened for reading, one component, not followed *)
Definition dir_open_flags (F : N) : Prop :=
  has F O_NOFOLLOW = true /\ has F O_DIRECTORY = true /\ has F O_PATH = false /\ has F O_CREAT = false /\
  intersects F O_ACCMODE = false /\ has F O_TRUNC = false.

(* [part] may be "." (the re-open of a directory through its own descriptor) *)
Lemma sem_open_dir rp s t cur o part F mode0 : dir_open_flags F ->
  tget t cur = Some o -> (o < PB s)%nat -> is_nil part = false -> has_slash part = false -> has_nul part = false ->
  sem s rp t (Openat cur part F mode0) =
  match mk_open s o part with inl c => SNew c | inr e => SRet (RErr e) end.
Proof.
  intros (Hnf & Hdir & Hpath & Hcr & Hacc & Htr) Hc Ho Hnil Hsl Hnu.
  cbn [sem]. rewrite Hc, Hnf. cbn [negb]. rewrite andb_false_r.
  unfold opath_nofollow. rewrite Hpath. cbn [andb negb orb].
  unfold ord_open. rewrite Hpath, Hcr, Hacc, Htr, Hnf, Hdir, Hsl, Hnu, Hnil. cbn [orb negb].
  destruct (Nat.leb_spec (PB s) o) as [Hge|_]; [exfalso; exact (proj1 (Nat.lt_nge _ _) Ho Hge)|].
  unfold mk_open, sem_open. destruct (open1 s o part) as [c|e]; [|reflexivity].
  unfold FSModel.is_dir. destruct (FSModel.kind_of s c); reflexivity.
Qed.

Section MK.
Variable rp : bytes.
Variable fz : nat.
Hypothesis Hfz : fz <> 0%nat.
Notation drun := (drun rp).

Lemma mkdir_dir_open : dir_open_flags (N.lor (N.lor (N.lor MKDIR_ALL_OPEN_FLAGS OPENAT_NOFOLLOW_FORCED) OPENAT_FORCED) O_LARGEFILE).
Proof. repeat split; reflexivity. Qed.

Lemma drun_open_dir s t seen cur o part fl mode0 :
  dir_open_flags (N.lor (N.lor (N.lor fl OPENAT_NOFOLLOW_FORCED) OPENAT_FORCED) O_LARGEFILE) ->
  tget t cur = Some o -> (o < PB s)%nat -> Dyn.plain part = true ->
  drun {| ds := s; dt := t; dseen := seen |} (w_openat fz cur part fl mode0) =
  match mk_open s o part with
  | inl c => DDone {| ds := s; dt := (fresh t, c) :: t; dseen := seen |} (Ok (fresh t))
  | inr e => DDone {| ds := s; dt := t; dseen := seen |} (Err e)
  end.
Proof.
  intros HF Hc Ho Hp. destruct (plain_facts _ Hp) as (Hnil & _ & _ & Hsl & Hnu).
  unfold w_openat, w_openat_follow, rustix_path. rewrite (tget_valid _ _ _ Hc), Hnu. cbn [negb Dyn.drun].
  rewrite (danswer_static rp) by (destruct HF as (_ & _ & _ & Hcr & _); exact Hcr). cbn [ds dt dseen seen_after].
  unfold answer. rewrite (sem_open_dir rp s t cur o part _ _ HF Hc Ho Hnil Hsl Hnu).
  destruct (mk_open s o part) as [c|e]; cbn [fst snd].
  - rewrite as_fd_fresh. reflexivity.
  - apply (drun_decode rp fz Hfz _ cur as_fd (RErr e)).
Qed.

Lemma mk_open_close s t cur o part (K : Z -> prog (result Z ekind)) : tget t cur = Some o -> (o < PB s)%nat -> Dyn.plain part = true ->
  drun {| ds := s; dt := t; dseen := [] |}
    (r <- os (w_openat fz cur part MKDIR_ALL_OPEN_FLAGS 0) ;;
     match r with Err e => close cur ;;; Ret (Err e) | Ok next => close cur ;;; K next end) =
  match mk_open s o part with
  | inr e => DDone {| ds := s; dt := tdel t cur; dseen := [] |} (Err (OsError e))
  | inl c => drun {| ds := s; dt := tdel ((fresh t, c) :: t) cur; dseen := [] |} (K (fresh t))
  end.
Proof.
  intros Hcur Ho Hp. rewrite drun_bind, drun_os, (drun_open_dir s t [] cur o part _ 0 mkdir_dir_open Hcur Ho Hp).
  destruct (mk_open s o part); rewrite drun_bind, drun_close_any; reflexivity.
Qed.

(* one component of the loop: mkdirat, open what is now there, close the directory above -- the recursion of [mk_spec] *)
Lemma mk_parts_step mode s t cur o part rest : tget t cur = Some o -> (o < NPB s)%nat -> Dyn.plain part = true ->
  drun {| ds := s; dt := t; dseen := [] |} (mk_parts fz mode (part :: rest) cur) =
  match mk_dir s o part with
  | inr e => DDone {| ds := s; dt := tdel t cur; dseen := [] |} (Err (OsError e))
  | inl s1 =>
      let t1 := reloc (NPB s) (NPB s1) t in
      match mk_open s1 o part with
      | inr e => DDone {| ds := s1; dt := tdel t1 cur; dseen := [] |} (Err (OsError e))
      | inl c => drun {| ds := s1; dt := tdel ((fresh t1, c) :: t1) cur; dseen := [] |} (mk_parts fz mode rest (fresh t1))
      end
  end.
Proof.
  intros Hcur Ho Hp. destruct (plain_facts _ Hp) as (_ & _ & _ & Hsl & Hnu).
  unfold mk_parts at 1. fold (mk_parts fz mode).
  rewrite Hsl, drun_bind, (drun_w_mkdirat rp fz Hfz s t [] cur o part mode Hcur Ho Hnu).
  unfold mk_dir. pose proof (create_sem_plain_not_out s o part FSModel.KDir Hp) as Hout.
  pose proof (create_sem_not_open s o part FSModel.KDir) as Hno.
  destruct (create_sem s o part FSModel.KDir) as [|e|s1|s1 ob] eqn:Ecs; cbn [eff_unit eff_st]; [contradiction| | |contradiction].
  - destruct (N.eqb e EEXIST).
    + (* the name was taken: the tree is as it was *)
      cbv zeta. rewrite reloc_same. exact (mk_open_close s t cur o part (mk_parts fz mode rest) Hcur Ho Hp).
    + rewrite drun_bind, drun_close_any. reflexivity.
  - assert (He : extends s s1) by (apply (mk_dir_ext s o part); unfold mk_dir; rewrite Ecs; reflexivity).
    apply (mk_open_close s1 _ cur o part (mk_parts fz mode rest)); [|exact (Nat.lt_le_trans _ _ _ Ho (extends_len _ _ He))|exact Hp].
    rewrite tget_reloc, Hcur. cbn [option_map]. rewrite (shift_small _ _ _ Ho). reflexivity.
Qed.

(* what [mk_parts_dyn] says of a run, with the value of [mk_spec] named: the proofs keep it folded.
   [ps = [] -> fd = cur]: with nothing to create the handle returned is the one passed in, not a new descriptor *)
Definition mk_ran (mode : N) (s : fs) (t : fdt) (cur : Z) (ps : list bytes) (s' : fs) (r : nat + N) : Prop :=
  exists t',
    (forall x ob, x <> cur -> tget t x = Some ob -> tget t' x = Some (rel s s' ob)) /\
    match r with
    | inl c => exists fd,
        drun {| ds := s; dt := t; dseen := [] |} (mk_parts fz mode ps cur) = DDone {| ds := s'; dt := t'; dseen := [] |} (Ok fd) /\
        tget t' fd = Some c /\ (c < NPB s')%nat /\
        (forall x, indom t' x -> x = fd \/ (indom t x /\ x <> cur)) /\ (ps = [] -> fd = cur)
    | inr e =>
        drun {| ds := s; dt := t; dseen := [] |} (mk_parts fz mode ps cur) = DDone {| ds := s'; dt := t'; dseen := [] |} (Err (OsError e)) /\
        (forall x, indom t' x -> indom t x /\ x <> cur)
    end.

(* the loop stops with the directory descriptor closed, in a tree [s1] that may have grown *)
Lemma mk_ran_stop mode s s1 t cur ps e :
  drun {| ds := s; dt := t; dseen := [] |} (mk_parts fz mode ps cur) =
    DDone {| ds := s1; dt := tdel (reloc (NPB s) (NPB s1) t) cur; dseen := [] |} (Err (OsError e)) ->
  mk_ran mode s t cur ps s1 (inr e).
Proof.
  intros Hrun. exists (tdel (reloc (NPB s) (NPB s1) t) cur). split; [|split; [exact Hrun|]].
  - intros x ob Hx Hxo. rewrite (tget_del_other _ _ _ Hx), tget_reloc, Hxo. reflexivity.
  - intros x Hx. apply StaticBal.indom_del in Hx. destruct Hx as [Hne Hin]. apply indom_reloc in Hin. split; assumption.
Qed.

(* one more round in front of a run: the tree grew from [s] to [s1], the loop went on from a new descriptor *)
Lemma mk_ran_cons mode s s1 t cur c part rest s' r (t1 := reloc (NPB s) (NPB s1) t) :
  (NPB s <= NPB s1)%nat -> (NPB s1 <= NPB s')%nat ->
  drun {| ds := s; dt := t; dseen := [] |} (mk_parts fz mode (part :: rest) cur) =
    drun {| ds := s1; dt := tdel ((fresh t1, c) :: t1) cur; dseen := [] |} (mk_parts fz mode rest (fresh t1)) ->
  mk_ran mode s1 (tdel ((fresh t1, c) :: t1) cur) (fresh t1) rest s' r -> mk_ran mode s t cur (part :: rest) s' r.
Proof.
  intros Hle Hle2 Hstep (t' & Hfr & Hres).
  (* what else is open in the next round was open in this one *)
  assert (Hdom1 : forall x, indom (tdel ((fresh t1, c) :: t1) cur) x -> x <> fresh t1 -> indom t x /\ x <> cur).
  { intros x Hx Hxf. destruct (indom_del_cons _ _ _ _ _ Hx Hxf) as [Hin Hxc]. apply indom_reloc in Hin. split; assumption. }
  exists t'. split.
  - intros x ob Hx Hxo.
    assert (Hx1 : tget t1 x = Some (rel s s1 ob)) by (unfold t1; rewrite tget_reloc, Hxo; reflexivity).
    assert (Hxf : x <> fresh t1) by (intro E'; rewrite E', tget_fresh_none in Hx1; discriminate).
    rewrite (Hfr x (rel s s1 ob) Hxf), (rel_trans s s1 _ ob Hle Hle2); [reflexivity|].
    rewrite (tget_del_other _ _ _ Hx). exact (tget_new_old _ _ _ _ Hx1).
  - rewrite Hstep. destruct r as [c2|e2].
    + destruct Hres as (fd & Hrun & Hfd & Hlt2 & Hdom & _). exists fd.
      split; [exact Hrun|]. split; [exact Hfd|]. split; [exact Hlt2|]. split; [|intro E'; discriminate].
      intros x Hx. destruct (Hdom x Hx) as [ -> |[Hin Hne]]; [left; reflexivity|right; exact (Hdom1 x Hin Hne)].
    + destruct Hres as (Hrun & Hdom). split; [exact Hrun|].
      intros x Hx. destruct (Hdom x Hx) as [Hin Hne]. exact (Hdom1 x Hin Hne).
Qed.

Lemma mk_parts_run mode : forall ps s t cur o s' r,
  closed2 s -> tget t cur = Some o -> (o < NPB s)%nat -> Forall (fun p => Dyn.plain p = true) ps -> mk_spec s o ps = (s', r) ->
  mk_ran mode s t cur ps s' r.
Proof.
  induction ps as [|part rest IH]; intros s t cur o s' r Hc Hcur Ho Hps E.
  - injection E as <- <-. exists t. split.
    + intros x ob _ Hx. rewrite rel_refl. exact Hx.
    + exists cur. split; [reflexivity|]. split; [exact Hcur|]. split; [exact Ho|]. split; [|reflexivity].
      intros x Hx. destruct (Z.eq_dec x cur); [left; assumption|right; split; assumption].
  - inversion Hps as [|? ? Hp Hrest]; subst.
    pose proof (mk_parts_step mode s t cur o part rest Hcur Ho Hp) as Hstep. cbn [mk_spec] in E.
    destruct (mk_dir s o part) as [s1|e] eqn:Em.
    2:{ injection E as <- <-. apply mk_ran_stop. rewrite reloc_same. exact Hstep. }
    pose proof (mk_dir_ext _ _ _ _ Em) as He1. pose proof (extends_closed2 _ _ He1 Hc) as Hc1. pose proof (extends_len _ _ He1) as Hle.
    cbv zeta in Hstep. destruct (mk_open s1 o part) as [c|e'] eqn:Eo.
    2:{ injection E as <- <-. exact (mk_ran_stop mode s s1 t cur _ e' Hstep). }
    pose proof (closed2_lookup_lt _ _ _ _ Hc1 (proj1 (mk_open_inl_dir _ _ _ _ (plain_no_dots _ Hp) Eo))) as Hclt.
    assert (Hfne : fresh (reloc (NPB s) (NPB s1) t) <> cur).
    { intro E'. rewrite fresh_reloc in E'. rewrite <- E', tget_fresh_none in Hcur. discriminate. }
    assert (Hle2 : (NPB s1 <= NPB s')%nat).
    { pose proof (mk_spec_post rest s1 c Hc1 Hclt Hrest) as (He2 & _). rewrite E in He2. exact (extends_len _ _ He2). }
    apply (mk_ran_cons mode s s1 t cur c part rest s' r Hle Hle2 Hstep).
    apply (IH s1 _ _ c s' r Hc1); [|exact Hclt|exact Hrest|exact E].
    rewrite (tget_del_other _ _ _ Hfne). apply tget_new.
Qed.

Theorem mk_parts_dyn mode : forall ps s t cur o,
  closed2 s -> tget t cur = Some o -> (o < NPB s)%nat -> Forall (fun p => Dyn.plain p = true) ps ->
  exists t',
    (forall x ob, x <> cur -> tget t x = Some ob -> tget t' x = Some (rel s (fst (mk_spec s o ps)) ob)) /\
    match snd (mk_spec s o ps) with
    | inl c => exists fd,
        drun {| ds := s; dt := t; dseen := [] |} (mk_parts fz mode ps cur) =
          DDone {| ds := fst (mk_spec s o ps); dt := t'; dseen := [] |} (Ok fd) /\
        tget t' fd = Some c /\ (c < NPB (fst (mk_spec s o ps)))%nat /\
        (forall x, indom t' x -> x = fd \/ (indom t x /\ x <> cur)) /\ (ps = [] -> fd = cur)
    | inr e =>
        drun {| ds := s; dt := t; dseen := [] |} (mk_parts fz mode ps cur) =
          DDone {| ds := fst (mk_spec s o ps); dt := t'; dseen := [] |} (Err (OsError e)) /\
        (forall x, indom t' x -> indom t x /\ x <> cur)
    end.
Proof.
  intros ps s t cur o Hc Hcur Ho Hps. destruct (mk_spec s o ps) as [s' r] eqn:E.
  exact (mk_parts_run mode ps s t cur o s' r Hc Hcur Ho Hps E).
Qed.

End MK.
