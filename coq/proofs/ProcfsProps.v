(* ProcfsProps.v -- C07 / C09: refusals, "..", the single follow site, descriptor
   independence of reopen.  All statements are for all kernel answers. *)
From PV Require Import Discipline ProgTac BitsProofs DisciplineProofs FaultProofs Hoare.

Definition is_Err {A E} (r : result A E) : Prop := match r with Err _ => True | Ok _ => False end.
Definition creation_flags (fl : N) : Prop :=
  has fl O_CREAT = true \/ has fl O_EXCL = true \/ has fl O_TMPFILE = true.

(* the two refusals (resolver, open_follow) are the same test: O_CREAT and O_EXCL as a mask,
   O_TMPFILE -- two bits -- as a whole *)
Lemma creation_refused fl m :
  has m O_CREAT = true -> has m O_EXCL = true -> creation_flags fl -> intersects fl m || has fl O_TMPFILE = true.
Proof.
  intros Hc He [H|[H|H]].
  - rewrite (intersects_of_has fl m O_CREAT); [reflexivity|discriminate|exact Hc|exact H].
  - rewrite (intersects_of_has fl m O_EXCL); [reflexivity|discriminate|exact He|exact H].
  - rewrite H. apply orb_true_r.
Qed.

Lemma creation_invalid fl : creation_flags fl -> procfs_flags_invalid fl = true.
Proof. exact (creation_refused fl PROCFS_INVALID_FLAGS eq_refl eq_refl). Qed.

Lemma creation_lor fl x : creation_flags fl -> creation_flags (N.lor fl x).
Proof. intros [H|[H|H]]; [left|right; left|right; right]; apply has_lor_l, H. Qed.

(* open_follow itself refuses creation flags before doing anything (F-C) *)
Lemma creation_follow_refused fl : creation_flags fl -> follow_refused fl = true.
Proof. exact (creation_refused fl OPEN_FOLLOW_REFUSED eq_refl eq_refl). Qed.

(* the refusal is monotone in the flags: the O_DIRECTORY a trailing slash adds cannot hide a creation flag *)
Lemma follow_refused_lor fl x : follow_refused fl = true -> follow_refused (N.lor fl x) = true.
Proof.
  unfold follow_refused, has_nz. intro H. apply orb_true_iff in H. apply orb_true_iff.
  destruct H as [H|H]; [left; apply intersects_lor_l, H|right].
  apply andb_true_iff in H as [Hn H]. rewrite Hn. apply has_lor_l, H.
Qed.

Lemma presolve_refuses fz cfg use root p fl rf :
  creation_flags fl -> presolve fz cfg use root p fl rf = Ret (Err InvalidArgument).
Proof. intro H. unfold presolve. rewrite (creation_invalid fl H). reflexivity. Qed.

Lemma popen_follow_refuses fz cfg fuel h base sub fl :
  creation_flags fl -> popen_follow fz cfg fuel h base sub fl = Ret (Err InvalidArgument).
Proof.
  intro H. pose proof (creation_follow_refused fl H) as R. unfold popen_follow.
  destruct OPEN_FOLLOW_REFUSAL_AFTER_SLASH; cbn [negb andb].
  - destruct (path_strip_trailing_slash sub) as [sub' ts].
    destruct ts; [rewrite (follow_refused_lor _ _ R)|rewrite R]; reflexivity.
  - rewrite R. reflexivity.
Qed.

Lemma rets_err {A E} (e : E) : rets (@is_Err A E) (Ret (Err e)).
Proof. constructor. exact I. Qed.

(* for "never succeeds" an error return is the end of the story, whatever is closed before it *)
Create HintDb errs.
#[export] Hint Resolve rets_err : errs.
#[export] Hint Resolve rets_bind : errs.

(* ProcfsHandle::open with creation flags never succeeds (the base directory is
   opened first; the lookup itself is refused without a system call) *)
Lemma popen_refuses fz cfg fuel : forall h base sub fl,
  creation_flags fl -> rets is_Err (popen fz cfg fuel h base sub fl).
Proof.
  induction fuel as [|f IH]; intros h base sub fl Hc; cbn [popen]; [constructor|].
  apply rets_bind. intros [basedir|e]; [|auto with errs].
  rewrite (presolve_refuses _ _ _ _ _ _ _ (creation_lor fl PROCFS_OPEN_FORCED Hc)).
  (* InvalidArgument is not ENOENT: no retry on a fresh handle *)
  cbn [bind]. replace (ph_subset h && ekind_is_enoent InvalidArgument) with false by (destruct (ph_subset h); reflexivity).
  cbn [bind]. auto with errs.
Qed.

(* reopen: O_NOFOLLOW is the only bit removed, so creation flags survive to open_follow *)
Lemma creation_without_nofollow fl : creation_flags fl -> creation_flags (without fl REOPEN_REMOVED).
Proof.
  unfold without.
  intros [H|[H|H]]; [left|right; left|right; right]; apply has_ldiff_other; try exact H; reflexivity.
Qed.

(* ---- ".." never leaves procfs: the emulated resolver answers EXDEV ------------- *)

Lemma pwalk_body_dotdot fz m fl rf follow :
  (forall go, follow = Some go -> forall cur cs, In [DOT; DOT] cs -> rets is_Err (go cur cs)) ->
  forall cur cs, In [DOT; DOT] cs -> rets is_Err (pwalk_body fz m fl rf follow cur cs).
Proof.
  intros Hgo cur cs. revert cur. induction cs as [|part0 rest IH]; intros cur Hin; [destruct Hin|].
  cbn [pwalk_body].
  destruct Hin as [ -> |Hrest].
  { (* this component is the "..": EXDEV *) change (is_dotdot _) with true. cbv iota. auto with errs. }
  (* the ".." is further on: this step fails, or goes on to a walk that still has it *)
  destruct (is_dotdot _); [auto with errs|].
  destruct rest as [|r0 rest']; [destruct Hrest|]. cbn [is_nil andb].
  apply rets_bind. intros [next|e]; [|auto with errs].
  apply rets_bind. intros [u|e]; [|auto with errs].
  apply rets_bind. intros [meta|e]; [|auto with errs].
  destruct (negb (is_symlink_mode (st_mode meta))); [apply rets_bind; intro; apply IH, Hrest|].
  destruct (has rf RESOLVE_NO_SYMLINKS); [auto with errs|].
  destruct follow as [go|]; [|auto with errs].
  apply rets_bind. intros [target|e]; [|auto with errs].
  destruct (is_abs target); [auto with errs|].
  apply rets_bind. intro. eapply Hgo; [reflexivity|]. apply in_or_app. right. exact Hrest.
Qed.

Lemma pwalk_dotdot fz budget m fl rf cur cs :
  In [DOT; DOT] cs -> rets is_Err (pwalk fz budget m fl rf cur cs).
Proof. revert cur cs. apply pwalk_budget_ind. exact (pwalk_body_dotdot fz m fl rf). Qed.

Lemma proc_subpath_nonneg fd : (0 <= fd)%Z -> proc_subpath fd = Some (b "fd/" ++ dec (Z.to_N fd)).
Proof.
  intro H. unfold proc_subpath, AT_FDCWD.
  destruct (Z.eqb_spec fd (-100)%Z) as [E|_]; [lia|].
  change PROC_SUBPATH_MIN_FD with 0%Z. destruct (Z.leb_spec 0 fd); [reflexivity|lia].
Qed.

Example proc_subpath_zero : proc_subpath 0 = Some (b "fd/0").
Proof. reflexivity. Qed.

(* ---- the single follow site of open_follow --------------------------------------- *)

Lemma okp_spec {A} P S (Q : A -> Prop) (p : prog A) :
  okp P S Q p -> forall h, spec (fun _ c => P c) (fun a _ => Q a) h p.
Proof. intro H. induction H; intro h; constructor; auto. Qed.

(* error-text-only calls (FrozenFd construction after a failing wrapper call) *)
Definition errtext (c : call) : bool :=
  match c with
  | Gettid | Readlink _ => true
  | Fstatat fd _ _ => Z.eqb fd AT_FDCWD
  | _ => false
  end.

(* the most recent call, error-text calls aside, is a statx of exactly (fd, n) *)
Fixpoint statx_recent (fd : Z) (n : bytes) (h : hist) : Prop :=
  match h with
  | [] => False
  | (c, _) :: rest =>
      match c with
      | Statx fd' n' _ _ => fd = fd' /\ n = n'
      | _ => errtext c = true /\ statx_recent fd n rest
      end
  end.

(* an open that may follow its name must come right after the statx
   (verify_same_mnt) of exactly that (directory, name) pair *)
Definition follow_ok (h : hist) (c : call) : Prop :=
  nofollow_b c = true \/
  match c with
  | Openat fd n _ _ => statx_recent fd n h
  | _ => False
  end.

Definition after_statx (fd : Z) (n : bytes) {A E} (r : result A E) (h : hist) : Prop :=
  match r with
  | Ok _ => statx_recent fd n h
  | Err _ => True
  end.

Lemma nf_spec {A} (Q : A -> Prop) (p : prog A) h :
  okp Pdn allowed_panic Q p -> spec follow_ok (fun a _ => Q a) h p.
Proof.
  intro H. eapply spec_weaken_call; [apply (okp_spec _ _ _ _ H)|].
  intros h' c [_ Hn]. left. exact Hn.
Qed.

Lemma nf_specT {A} (Q : A -> Prop) (p : prog A) h : okp Pdn allowed_panic Q p -> spec follow_ok TrueQ h p.
Proof. intro H. eapply spec_weaken; [apply nf_spec, H|]. intros; exact I. Qed.

(* error-text calls keep [statx_recent]; FrozenFd construction issues no others *)
Lemma errtext_keeps {A} (p : prog A) fd n : all_calls (fun c => errtext c = true) p ->
  forall h, statx_recent fd n h -> spec follow_ok (fun _ h' => statx_recent fd n h') h p.
Proof.
  intro Hp. induction Hp as [a|c k Hc _ IH|s|]; intros h Hh; constructor; [exact Hh| |].
  - left. destruct c; try discriminate Hc; reflexivity.
  - intro r. apply IH. destruct c; try discriminate Hc; split; assumption.
Qed.

Lemma frozen_keeps fz fd0 fd n h :
  statx_recent fd n h -> spec follow_ok (fun _ h' => statx_recent fd n h') h (frozen fz fd0).
Proof.
  apply errtext_keeps. eapply ac_weaken; [|apply frozen_calls].
  intros c [ -> |[[s ->]|[s ->]]]; reflexivity.
Qed.

(* a name with a NUL never reaches the kernel (rustix_path), so nothing is claimed of it *)
Lemma w_statx_after fz fd n mask h :
  real_fd fd = true ->
  spec follow_ok (fun (_ : result (N * N) N) h' => has_nul n = false -> statx_recent fd n h') h (w_statx fz fd n mask).
Proof.
  intros Hfd. unfold w_statx, simple1. rewrite (real_fd_valid _ Hfd). cbn [negb].
  unfold rustix_path. destruct (has_nul n) eqn:Enul.
  - unfold fail1. eapply spec_bind; [apply nf_spec, frozen_ok|]. intros _ h' _.
    constructor. discriminate.
  - constructor; [left; reflexivity|]. intro r.
    assert (H1 : statx_recent fd n ((Statx fd n STATX_FLAGS mask, r) :: h)) by (split; reflexivity).
    destruct (as_statx r) as [[mk id]|e].
    + constructor. intros _. exact H1.
    + unfold fail1. eapply spec_bind; [apply frozen_keeps; exact H1|]. intros u' h' H'.
      constructor. intros _. exact H'.
Qed.

Lemma verify_same_mnt_after fz m fd n h :
  real_fd fd = true ->
  spec follow_ok (fun (_ : result unit ekind) h' => has_nul n = false -> statx_recent fd n h') h
       (verify_same_mnt fz m fd n).
Proof.
  intros Hfd. unfold verify_same_mnt, fetch_mnt_id, bindR.
  eapply spec_bind with (Q1 := fun _ h' => has_nul n = false -> statx_recent fd n h').
  - eapply spec_bind; [apply w_statx_after; assumption|].
    intros [[mk id]|e] h' Hr; [constructor; exact Hr|].
    destruct (existsb _ _); constructor; exact Hr.
  - intros [mnt|e] h' Hr; [|constructor; exact Hr].
    destruct (opt_n_eqb m mnt); constructor; exact Hr.
Qed.

Lemma w_openat_follow_spec fz fd n fl m h :
  real_fd fd = true -> (has_nul n = false -> statx_recent fd n h) ->
  spec follow_ok TrueQ h (w_openat_follow fz fd n fl m).
Proof.
  intros Hfd Hst. unfold w_openat_follow. rewrite (real_fd_valid _ Hfd). cbn [negb].
  unfold rustix_path. destruct (has_nul n) eqn:Enul; [apply nf_specT with (Q := Qfd), fail1_ok|].
  constructor; [right; apply Hst; reflexivity|]. intro r.
  destruct (as_fd r) as [k|e]; [constructor; exact I|apply nf_specT with (Q := Qfd), fail1_ok].
Qed.

Theorem popen_follow_dominated fz cfg fuel h0 base sub fl h :
  real_fd (ph_fd h0) = true ->
  spec follow_ok TrueQ h (popen_follow fz cfg fuel h0 base sub fl).
Proof.
  intro Hh. revert h.
  apply (popen_follow_cases Jd fz cfg (fun p => forall h, spec follow_ok TrueQ h p)); [| | |exact Hh].
  - intros p Hp h. exact (nf_specT _ _ _ Hp).
  - intros A Q p f Hp Hf h. eapply spec_bind; [apply nf_spec, Hp|]. intros a h' Ha. apply Hf, Ha.
  - (* the follow-mode open, issued right after the statx of (pfd, trailing) *)
    intros pfd m trailing fl' Hp _ _ h.
    assert (Hcl : forall (r : result Z ekind) h', spec follow_ok TrueQ h' (close pfd ;;; Ret r)).
    { intros r h'. apply nf_specT with (Q := okR QT). auto with tails. }
    eapply spec_bind; [apply verify_same_mnt_after; exact Hp|].
    intros [u|e] h4 Hafter; [|apply Hcl].
    eapply spec_bind with (Q1 := TrueQ); [|intros; apply Hcl].
    apply spec_map_err. eapply spec_weaken; [apply w_openat_follow_spec; [exact Hp|exact Hafter]|]. intros; exact I.
Qed.
