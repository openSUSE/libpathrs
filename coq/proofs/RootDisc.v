(* RootDisc.v -- resolvers/openat2.rs, resolvers.rs, root.rs, utils/dir.rs: the lookups for every
   judgement on single calls (DisciplineProofs.judge), the operations of a Root for C05 / C10,
   and what parent_and_name is: the in-root resolution of everything before the last '/', with the last component. *)
From PV Require Import Discipline ProgTac BitsProofs PathProofs DisciplineProofs OpathDisc.

Section Lookups.
Variable J : judge.
Variable fz : nat.
Variable cfg : bool.
Variable pfuel : nat.
Variable gh : phandle.
Variable sysctl_ps : N.
Notation G := (jG J).
Notation okg := (okp (jP J) (jS J)).
Hypothesis Hgh : G (ph_fd gh).

Notation r_resolve := (r_resolve fz cfg pfuel gh sysctl_ps).
Notation r_resolve_partial := (r_resolve_partial fz cfg pfuel gh sysctl_ps).
Notation resolve_parent := (resolve_parent fz cfg pfuel gh sysctl_ps).
Notation parent_and_name := (parent_and_name fz cfg pfuel gh sysctl_ps).

Lemma k_resolve_loop_ok n root path fl rf :
  G root -> jF J fl -> okg (okR G) (k_resolve_loop fz n root path fl (N.lor OPENAT2_RESOLVE_RESOLVE rf)).
Proof.
  intros Hr Hfl. induction n as [|m IH]; cbn [k_resolve_loop]; [auto with tails|].
  eapply okp_bind; [apply j_openat2; [exact Hr|reflexivity|exact Hfl]|].
  intros [fd|e] Hfd; [auto with tails|].
  destruct (N.eqb e ENOSYS); [auto with tails|].
  destruct (N.eqb e EAGAIN); [exact IH|auto with tails].
Qed.

Lemma k_resolve_ok root path rf nf : G root -> okg (okR G) (k_resolve fz cfg root path rf nf).
Proof.
  intro Hr. unfold k_resolve. destruct cfg; cbn [negb]; [|auto with tails].
  apply k_resolve_loop_ok; [exact Hr|]. destruct nf; apply j_nc; reflexivity.
Qed.

Lemma k_resolve_partial_ok root path rf nf : G root -> okg (Qlk J) (k_resolve_partial fz cfg root path rf nf).
Proof.
  intro Hr. unfold k_resolve_partial.
  eapply okp_bind; [apply k_resolve_ok; exact Hr|]. intros [fd|e0] Hfd; [constructor; exact Hfd|].
  generalize e0. induction (partial_ancestors path) as [|[p rem] rest IH]; intro last.
  - destruct PARTIAL_UNREACHABLE_PANICS eqn:Efl; [|auto with tails]. constructor. apply j_partial, Efl.
  - destruct (is_safety_violation last); [auto with tails|].
    eapply okp_bind; [apply k_resolve_ok; exact Hr|]. intros [fd|e] Hfd2; [constructor; exact Hfd2|apply IH].
Qed.

Lemma r_resolve_ok rs root path nf : G root -> okg (okR G) (r_resolve rs root path nf).
Proof.
  intro Hr. unfold RootM.r_resolve. destruct (rs_kernel rs);
    [apply k_resolve_ok|apply opath_resolve_root_ok]; assumption.
Qed.

Lemma r_resolve_partial_ok rs root path nf : G root -> okg (Qlk J) (r_resolve_partial rs root path nf).
Proof.
  intro Hr. unfold RootM.r_resolve_partial. destruct (rs_kernel rs);
    [apply k_resolve_partial_ok|apply opath_resolve_partial_ok]; assumption.
Qed.

Definition Qpn {E} : result (Z * bytes) E -> Prop :=
  okR (fun dn => G (fst dn) /\ single (snd dn) = true).

(* path_split never panics, and a name it returns is a single component *)
Lemma resolve_parent_ok rs root path :
  G root ->
  okg (okR (fun dn => G (fst dn) /\ forall n, snd dn = Some n -> single n = true))
      (resolve_parent rs root path).
Proof.
  intro Hr. unfold RootM.resolve_parent.
  destruct (path_split path) as [[[parent name]|e]|] eqn:Hsp;
    [|auto with tails|exfalso; exact (path_split_total _ Hsp)].
  eapply okp_bindR; [apply r_resolve_ok; exact Hr|]. intros dir Hd.
  constructor. split; [exact Hd|]. intros n Hn. cbn in Hn. subst name.
  apply single_of_no_slash, (path_split_name_single _ _ _ Hsp).
Qed.

Lemma parent_and_name_ok rs root path : G root -> okg Qpn (parent_and_name rs root path).
Proof.
  intro Hr. unfold RootM.parent_and_name.
  eapply okp_bindR; [apply resolve_parent_ok; exact Hr|]. intros [dir [n|]] [Hd Hn]; cbn [fst snd] in *.
  - constructor. split; [exact Hd|apply Hn; reflexivity].
  - auto with tails.
Qed.

End Lookups.

Section RootDisc.
Variable fz : nat.
Variable cfg : bool.
Variable pfuel : nat.
Variable gh : phandle.
Variable sysctl_ps : N.
Hypothesis Hgh : rfd (ph_fd gh).

Notation r_open := (r_open fz cfg pfuel gh sysctl_ps).

Lemma k_open_ok root path rf fl : rfd root -> okd Qfd (k_open fz cfg root path rf fl).
Proof.
  intro Hr. unfold k_open. destruct cfg; cbn [negb]; [|auto with tails].
  destruct (N.eqb OPENAT2_OPEN_RETRIES 0).
  - apply okp_os, w_openat2_mask_ok; [exact Hr|reflexivity].
  - apply (openat2_retry_ok Jd); [exact Hr|reflexivity|exact I].
Qed.

Lemma h_reopen_ok fd fl : rfd fd -> okf Qfd (h_reopen fz cfg pfuel gh fd fl).
Proof. intro H. unfold h_reopen. apply (reopen_ok Jd); assumption. Qed.

(* Resolver::open: disciplined; only the reopen through procfs may follow *)
Theorem r_open_ok rs root path fl : rfd root -> okf Qfd (r_open rs root path fl).
Proof.
  intro Hr. unfold RootM.r_open. destruct (_ || _); [auto with tails|].
  destruct (rs_kernel rs) eqn:Ek; [apply okf_of_okd, k_open_ok; exact Hr|].
  eapply (okg'_bindR Jd); [apply (r_resolve_ok Jd); assumption|]. intros h Hh.
  eapply (okg'_bind Jd); [apply okp_os, w_fstatat_ok; [exact Hh|reflexivity]|]. intros [meta|e] _; [|auto with tails].
  destruct (is_symlink_mode _).
  - destruct (has fl O_DIRECTORY); [auto with tails|]. destruct (has fl O_PATH); auto with tails.
  - eapply okp_bind; [apply h_reopen_ok; exact Hh|]. intros r Hrr. auto with tails.
Qed.

Lemma call_then_close {A} (p : prog (result A N)) dir :
  rfd dir -> okd (okR QT) p -> okd (okR QT) (r <- os p ;; close dir ;;; Ret r).
Proof. intros Hd Hp. eapply okp_os_bind; [exact Hp|]. intros r _. auto with tails. Qed.

Theorem root_readlink_ok rs root path : rfd root -> okd (okR QT) (root_readlink fz cfg pfuel gh sysctl_ps rs root path).
Proof.
  intro Hr. unfold root_readlink.
  eapply okp_bindR; [apply (r_resolve_ok Jd); assumption|]. intros link Hl.
  apply call_then_close; [exact Hl|apply w_readlinkat_ok, Hl].
Qed.

Theorem root_create_ok rs root path ty : rfd root -> okd (okR QT) (root_create fz cfg pfuel gh sysctl_ps rs root path ty).
Proof.
  intro Hr. unfold root_create.
  eapply okp_bindR; [apply (parent_and_name_ok Jd); assumption|]. intros [dir name] [Hd Hn]. cbn in Hd, Hn.
  destruct ty; try (apply call_then_close; [exact Hd|]);
    [apply w_mknodat_ok|apply w_mkdirat_ok|apply w_symlinkat_ok| |apply w_mknodat_ok..]; try assumption.
  eapply okp_bind; [apply (parent_and_name_ok Jd); assumption|].
  intros [[olddir oldname]|e] Hpn; [|auto with tails]. destruct Hpn as [Hod Hon]. cbn in Hod, Hon.
  eapply okp_os_bind; [apply w_linkat_ok; assumption|]. intros r _. auto with tails.
Qed.

Theorem root_create_file_ok rs root path fl mode :
  rfd root -> okd Qfd (root_create_file fz cfg pfuel gh sysctl_ps rs root path fl mode).
Proof.
  intro Hr. unfold root_create_file. destruct (CREATE_FILE_REFUSES_OPATH && has fl O_PATH); [auto with tails|].
  eapply okp_bindR; [apply (parent_and_name_ok Jd); assumption|]. intros [dir name] [Hd Hn]. cbn in Hd, Hn.
  eapply okp_os_bind; [apply w_openat_ok; assumption|]. intros r Hfd. auto with tails.
Qed.

Theorem root_remove_inode_ok rs root path isdir :
  rfd root -> okd (okR QT) (root_remove_inode fz cfg pfuel gh sysctl_ps rs root path isdir).
Proof.
  intro Hr. unfold root_remove_inode.
  eapply okp_bindR; [apply (parent_and_name_ok Jd); assumption|]. intros [dir name] [Hd Hn]. cbn in Hd, Hn.
  apply call_then_close; [exact Hd|apply w_unlinkat_ok; assumption].
Qed.

Theorem root_rename_ok rs root src dst rfl :
  rfd root -> okd (okR QT) (root_rename fz cfg pfuel gh sysctl_ps rs root src dst rfl).
Proof.
  intro Hr. unfold root_rename.
  eapply okp_bindR; [apply (parent_and_name_ok Jd); assumption|]. intros [sd sn] [Hsd Hsn]. cbn in Hsd, Hsn.
  eapply okp_bind; [apply (parent_and_name_ok Jd); assumption|].
  intros [[dd dn]|e] Hpn; [|auto with tails]. destruct Hpn as [Hdd Hdn]. cbn in Hdd, Hdn.
  eapply okp_os_bind; [apply w_renameat2_ok; assumption|]. intros r _. auto with tails.
Qed.

(* ---- utils/dir.rs ---------------------------------------------------------- *)

Lemma remove_inode_ok dirfd name : rfd dirfd -> single name = true -> okd (okR QT) (remove_inode fz dirfd name).
Proof.
  intros Hd Hn. unfold remove_inode.
  eapply okp_bind; [apply w_unlinkat_ok; assumption|]. intros [_u|ue] _; [auto with tails|].
  eapply okp_bind; [apply w_unlinkat_ok; assumption|]. intros [_u|re] _; auto with tails.
Qed.

Lemma ra_entries_ok rec g : forall dfd buf seen,
  (forall n, okd (okR (@QT unit)) (rec n)) -> rfd dfd ->
  okd (okR (@QT bool)) (ra_entries rec g dfd buf seen).
Proof.
  induction g as [|g' IH]; intros dfd buf seen Hrec Hd; cbn [ra_entries]; [constructor|].
  destruct buf as [|n rest]; cbn iota.
  - constructor; [unfold rfd in *; pdn_solve|]. intro r. destruct (as_dents r) as [[|n l]|e].
    + auto with tails.
    + apply IH; assumption.
    + destruct (N.eqb e EINTR); [apply IH; assumption|]. destruct (N.eqb e ENOENT); auto with tails.
  - destruct (dot_or_dotdot n); [apply IH; assumption|].
    eapply okp_bind; [apply Hrec|]. intros r _.
    destruct (ignore_enoent r); [apply IH; assumption|auto with tails].
Qed.

(* Dir::read_from: openat(subdir, ".", <the flags F_GETFL answered> | O_CLOEXEC) *)
Lemma open_dot_disc subdir fl :
  rfd subdir -> Pdn (Openat subdir [DOT] (N.lor (N.lor fl O_CLOEXEC) O_LARGEFILE) 0).
Proof.
  intro Hs. split; [|apply orb_true_r]. cbn [disc_b]. rewrite (real_fd_not_cwd _ Hs), Hs.
  change (single [DOT]) with true. change (dotname [DOT]) with true. cbn [andb orb].
  rewrite andb_true_r. apply has_lor_l, has_lor_r. reflexivity.
Qed.

Lemma ra_rounds_ok scan fin subdir g :
  (forall dfd, rfd dfd -> okd (okR (@QT bool)) (scan dfd)) ->
  okd (okR (@QT unit)) fin -> rfd subdir ->
  okd (okR (@QT unit)) (ra_rounds scan fin subdir g).
Proof.
  intros Hscan Hfin Hs. induction g as [|g' IH]; cbn [ra_rounds]; [constructor|].
  constructor; [unfold rfd in *; pdn_solve|]. intro rf.
  assert (Hfail : forall e, okd (okR (@QT unit))
            (if N.eqb e ENOENT then fin else close subdir ;;; Ret (Err (OsError e)))).
  { intro e. destruct (N.eqb e ENOENT); [exact Hfin|auto with tails]. }
  (* whatever F_GETFL answered, short of an error, the directory is opened with those flags *)
  set (opened := fun ro : resp => match as_fd ro with Ok dfd => _ | Err e => _ end).
  assert (Hopened : forall ro, okd (okR (@QT unit)) (opened ro)).
  { intro ro. unfold opened. destruct (as_fd ro) as [dfd|e] eqn:E; [|apply Hfail].
    eapply okp_bind; [apply Hscan, (as_fd_real _ _ E)|].
    intros [[|]|e] _; [exact IH|exact Hfin|auto with tails]. }
  destruct rf; try apply Hfail; (constructor; [apply open_dot_disc, Hs|exact Hopened]).
Qed.

Theorem remove_all_ok fuel : forall dirfd name, rfd dirfd -> okd (okR QT) (remove_all fz fuel dirfd name).
Proof.
  induction fuel as [|f IH]; intros dirfd name Hd; cbn [remove_all]; [constructor|].
  destruct (has_slash name) eqn:Hsl; [auto with tails|].
  pose proof (single_of_no_slash _ Hsl) as Hn.
  destruct (REMOVE_ALL_REFUSES_DOTS && dot_or_dotdot name); [auto with tails|].
  eapply okp_bind; [apply remove_inode_ok; assumption|]. intros r _.
  destruct (ignore_enoent r); [auto with tails|].
  eapply okp_os_bind; [apply w_openat_ok; assumption|].
  intros [subdir|e2] Hsub; [|destruct (errno_is e2 ENOENT); auto with tails].
  cbn in Hsub. cbn zeta.
  apply ra_rounds_ok; [| |exact Hsub].
  - intros dfd Hdfd. apply ra_entries_ok; [|exact Hdfd]. intro n. apply IH; exact Hsub.
  - eapply okp_bind; [apply remove_inode_ok; assumption|]. intros r3 _. auto with tails.
Qed.

Theorem root_remove_all_ok rfuel rs root path :
  rfd root -> okd (okR QT) (root_remove_all fz cfg pfuel gh sysctl_ps rfuel rs root path).
Proof.
  intro Hr. unfold root_remove_all.
  eapply okp_bindR; [apply (parent_and_name_ok Jd); assumption|]. intros [dir name] [Hd Hn]. cbn in Hd, Hn.
  eapply okp_bind; [apply remove_all_ok; exact Hd|]. intros r _. auto with tails.
Qed.

Theorem root_mkdir_all_ok rs root path mode :
  rfd root -> okf Qfd (root_mkdir_all fz cfg pfuel gh sysctl_ps rs root path mode).
Proof.
  intro Hr. unfold root_mkdir_all.
  apply okp_if; [auto with tails|]. apply okp_if; [auto with tails|].
  eapply (okg'_bindR Jd); [apply (r_resolve_partial_ok Jd); assumption|]. intros l Hl.
  eapply okp_bind with (Q1 := okR (fun hr : Z * option bytes => rfd (fst hr))).
  { destruct l as [fd|fd rem e]; cbn in Hl; [constructor; exact Hl|].
    destruct (match e with OsError n => N.eqb n ENOENT | _ => false end); [constructor; exact Hl|auto with tails]. }
  intros [[handle remaining]|e] Hh; [|auto with tails]. cbn in Hh.
  eapply okp_bind; [apply h_reopen_ok; exact Hh|]. intros [cur0|e] Hc; apply okf_of_okd.
  - cbn in Hc. apply okd_close; [exact Hh|].
    apply okp_if; [auto with tails|].
    (* the loop over the components still to be created, from whatever descriptor it has reached *)
    set (parts := filter _ _). clearbody parts. revert cur0 Hc.
    induction parts as [|part rest IH]; intros cur Hc; [auto with tails|].
    destruct (has_slash part) eqn:Hsl; [auto with tails|].
    pose proof (single_of_no_slash _ Hsl) as Hp.
    eapply okp_bind; [apply w_mkdirat_ok; assumption|]. intros r _.
    destruct (match r with Ok _ => None | Err e => if N.eqb e EEXIST then None else Some e end);
      [auto with tails|].
    eapply okp_os_bind; [apply w_openat_ok; assumption|]. intros [next|e] Hn; [|auto with tails].
    apply okd_close; [exact Hc|]. apply IH; exact Hn.
  - eapply okp_then; [apply frozen_ok|auto with tails].
Qed.

End RootDisc.

(* ---- shape of the Root operations (C03 / C04 / C12 / C13 / C14) ---------------------- *)

Section Ops.
Variable fz : nat.
Variable cfg : bool.
Variable pfuel : nat.
Variable gh : phandle.
Variable sysctl_ps : N.

Notation pan := (parent_and_name fz cfg pfuel gh sysctl_ps).
Notation rres := (r_resolve fz cfg pfuel gh sysctl_ps).

(* resolve_parent + the name check, spelled out: the parent is the in-root
   resolution (following links) of everything before the last '/', the name is
   the last component; a path without a final name (empty, or ending in '/') is
   an InvalidArgument -- after the parent was resolved and closed again *)
Theorem parent_and_name_shape rs root path :
  match path_split path with
  | Some (Ok (dirp, Some name)) =>
      peq (pan rs root path) (dir <-? rres rs root dirp false ;; Ret (Ok (dir, name)))
      /\ name <> [] /\ has_slash name = false
  | Some (Ok (dirp, None)) =>
      peq (pan rs root path) (dir <-? rres rs root dirp false ;; close dir ;;; Ret (Err InvalidArgument))
      /\ (path = [] \/ exists q, path = q ++ [SLASH])
  | _ => False
  end.
Proof.
  destruct (path_split path) as [[[dirp [name|]]|e]|] eqn:Hsp.
  - split; [|exact (path_split_name_single _ _ _ Hsp)].
    unfold parent_and_name, resolve_parent. rewrite Hsp. apply bindR_assoc.
  - split; [|exact (path_split_noname _ _ Hsp)].
    unfold parent_and_name, resolve_parent. rewrite Hsp. apply bindR_assoc.
  - exact (path_split_never_err _ _ Hsp).
  - exact (path_split_total _ Hsp).
Qed.

End Ops.
