(* DynInv.v -- the tree invariant: what the functional theorems of C12 / C13 / C14 assume of a tree ([inv_facts]) is
   true of every tree the modelled operations can produce from an empty root ([inv_reachable]). *)
From PV Require Import Dyn PathProofs DynProofs DynMkdir DynRemove DynRemoveExact DynMkdirComplete DynRemoveConc.

Definition ent_ok (s : fs) (e : ent) : Prop :=
  (ent_dir e < length (kinds s))%nat /\ (ent_obj e < length (kinds s))%nat /\ nm_ok (ent_name e).

Definition inv (s : fs) : Prop :=
  (0 < length (kinds s))%nat /\ length (parents s) = length (kinds s) /\
  (forall e, In e (ents s) -> ent_ok s e) /\ uniq s /\ Forall (fun p => (p < length (kinds s))%nat) (parents s).

Lemma inv_shrinks s s' : shrinks s s' -> inv s -> inv s'.
Proof.
  intros Hs (H0 & Hlen & He & Hu & Hp). pose proof Hs as (Hk & Hpar & Hi). unfold inv, ent_ok. rewrite Hk, Hpar.
  split; [exact H0|]. split; [exact Hlen|]. split; [intros e H; exact (He e (Hi e H))|]. split; [exact (uniq_shrinks _ _ Hs Hu)|exact Hp].
Qed.

Lemma inv_del_ent s d n : inv s -> inv (del_ent s d n).
Proof. apply inv_shrinks, del_ent_shrinks. Qed.

Lemma uniq_snoc s d n c es' : uniq s -> lookup s d n = None -> es' = ents s ++ [(d, n, c)] ->
  forall d0 n1 n2 c1 c2, In (d0, n1, c1) es' -> In (d0, n2, c2) es' -> beq n1 n2 = true -> c1 = c2.
Proof.
  intros Hu Hl -> d0 n1 n2 c1 c2 H1 H2 Hb. apply in_app_or in H1. apply in_app_or in H2.
  destruct H1 as [H1|[H1|[]]]; destruct H2 as [H2|[H2|[]]].
  - exact (Hu d0 n1 n2 c1 c2 H1 H2 Hb).
  - exfalso. injection H2 as <- <- <-. rewrite beq_sym in Hb. exact (find_ent_none _ _ _ _ _ Hl H1 Hb).
  - exfalso. injection H1 as <- <- <-. exact (find_ent_none _ _ _ _ _ Hl H2 Hb).
  - congruence.
Qed.

Lemma inv_add_ent s d n c : inv s -> (d < length (kinds s))%nat -> (c < length (kinds s))%nat -> nm_ok n -> lookup s d n = None ->
  inv (add_ent s d n c).
Proof.
  intros (H0 & Hlen & He & Hu & Hp) Hd Hc Hn Hl. unfold inv, ent_ok, add_ent. cbn [FSModel.kinds FSModel.parents FSModel.ents].
  split; [exact H0|]. split; [exact Hlen|]. split; [|split; [|exact Hp]].
  - intros e Hin. apply in_app_or in Hin. destruct Hin as [Hin|[<-|[]]]; [exact (He e Hin)|]. cbn [ent_dir ent_obj ent_name fst snd]. split; [exact Hd|split; [exact Hc|exact Hn]].
  - intros d0 n1 n2 c1 c2. apply (uniq_snoc s d n c _ Hu Hl eq_refl).
Qed.

Lemma inv_add_obj s d n k : inv s -> (d < length (kinds s))%nat -> nm_ok n -> lookup s d n = None -> inv (FSModel.add_obj s d n k).
Proof.
  intros (H0 & Hlen & He & Hu & Hp) Hd Hn Hl. unfold inv, ent_ok, FSModel.add_obj. cbn [FSModel.kinds FSModel.parents FSModel.ents].
  rewrite !app_length. cbn [length]. rewrite !Nat.add_1_r, Hlen.
  split; [apply Nat.lt_0_succ|]. split; [reflexivity|]. split; [|split].
  - intros e Hin. apply in_app_or in Hin. destruct Hin as [Hin|[<-|[]]].
    + destruct (He e Hin) as (A & B & C). split; [exact (Nat.lt_lt_succ_r _ _ A)|split; [exact (Nat.lt_lt_succ_r _ _ B)|exact C]].
    + split; [exact (Nat.lt_lt_succ_r _ _ Hd)|split; [apply Nat.lt_succ_diag_r|exact Hn]].
  - intros d0 n1 n2 c1 c2. apply (uniq_snoc s d n (length (kinds s)) _ Hu Hl eq_refl).
  - apply Forall_app. split; [exact (Forall_impl _ (fun a => Nat.lt_lt_succ_r a _) Hp)|constructor; [exact (Nat.lt_lt_succ_r _ _ Hd)|constructor]].
Qed.

Lemma set_nth_length {A} (l : list A) i x : length (set_nth l i x) = length l.
Proof. revert i. induction l as [|h t IH]; intros [|i]; cbn [set_nth length]; try reflexivity. rewrite IH. reflexivity. Qed.

Lemma set_nth_Forall {A} (P : A -> Prop) (l : list A) i x : Forall P l -> P x -> Forall P (set_nth l i x).
Proof.
  intros Hl Hx. revert i. induction Hl as [|h t Hh Ht IH]; intros [|i]; cbn [set_nth]; try constructor; try assumption. apply IH.
Qed.

Lemma inv_reparent s c d : inv s -> (d < length (kinds s))%nat -> inv (reparent s c d).
Proof.
  intros Hi Hd. unfold reparent. destruct (is_dir s c); [|exact Hi]. destruct Hi as (H0 & Hlen & He & Hu & Hp).
  unfold inv, ent_ok, set_parent. cbn [FSModel.kinds FSModel.parents FSModel.ents]. rewrite set_nth_length.
  repeat split; try assumption; try (apply (He e); assumption). apply set_nth_Forall; assumption.
Qed.

Lemma inv_lookup_lt s d n c : inv s -> lookup s d n = Some c -> (c < length (kinds s))%nat.
Proof.
  intros (_ & _ & He & _) H. destruct (FSProofs.find_ent_spec _ _ _ _ H) as (n' & Hin & _). exact (proj1 (proj2 (He _ Hin))).
Qed.

(* what the invariant gives the theorems *)
Lemma inv_facts s : inv s -> closed2 s /\ ents_ok s /\ uniq s /\ dirs_ok s /\ tree_ok s.
Proof.
  intros Hi. pose proof Hi as (H0 & Hlen & He & Hu & Hp).
  split; [|split; [|split; [exact Hu|split]]].
  - split; [split; [exact H0|split]|exact Hlen].
    + intros d n c H. exact (inv_lookup_lt s d n c Hi H).
    + intros o _. unfold Static.PB, FSModel.parent_of. destruct (Nat.lt_ge_cases o (length (parents s))) as [Hlt|Hge].
      * rewrite Forall_forall in Hp. apply Hp. apply nth_In. exact Hlt.
      * rewrite nth_overflow by exact Hge. exact H0.
  - intros x Hx. split; [unfold NPB; exact (proj1 (proj2 (He x Hx)))|exact (proj1 (proj2 (proj2 (He x Hx))))].
  - intros x Hx. exact (proj1 (He x Hx)).
  - split; [exact Hu|]. intros x Hx. exact (proj2 (proj2 (He x Hx))).
Qed.

(* [tree_of]: the tree after a call, the old one on failure *)

Definition tree_of (r : eres) (s : fs) : fs := match r with EUnit s' => s' | EOpen s' _ => s' | _ => s end.

(* [s'] is [s], or [s] with one new object entered in a directory under a name that was free *)
Definition adds (s s' : fs) : Prop :=
  s' = s \/ exists d n k, is_dir s d = true /\ nm_ok n /\ lookup s d n = None /\ s' = FSModel.add_obj s d n k.

Lemma create_tree s d n k : adds s (tree_of (create_sem s d n k) s).
Proof.
  unfold create_sem. destruct (is_dir s d) eqn:Ed; cbn [negb]; [|left; reflexivity].
  destruct (is_nil n) eqn:E1; [left; reflexivity|]. destruct (has_slash n || has_nul n) eqn:E2; [left; reflexivity|].
  destruct (is_dot n || is_dotdot n) eqn:E3; [left; reflexivity|]. destruct (too_long n) eqn:E4; [left; reflexivity|].
  destruct (lookup s d n) eqn:El; [left; reflexivity|]. right. exists d, n, k. apply orb_false_iff in E2.
  repeat split; try reflexivity; try assumption. exact (plain_of n E1 (proj1 E2) (proj2 E2) E3).
Qed.

Lemma creat_tree s d n fl : adds s (tree_of (creat_sem s d n fl) s).
Proof.
  unfold creat_sem. destruct (has fl O_PATH || has fl O_DIRECTORY || negb (has fl O_NOFOLLOW)); [left; reflexivity|].
  destruct (is_dir s d) eqn:Ed; cbn [negb]; [|left; reflexivity].
  destruct (is_nil n) eqn:E1; [left; reflexivity|]. destruct (has_slash n || has_nul n) eqn:E2; [left; reflexivity|].
  destruct (is_dot n || is_dotdot n) eqn:E3; [left; reflexivity|]. destruct (too_long n) eqn:E4; [left; reflexivity|].
  destruct (lookup s d n) as [c|] eqn:El.
  - left. destruct (has fl O_EXCL); [reflexivity|]. destruct (FSModel.kind_of s c); reflexivity.
  - right. exists d, n, FSModel.KReg. apply orb_false_iff in E2. repeat split; try reflexivity; try assumption. exact (plain_of n E1 (proj1 E2) (proj2 E2) E3).
Qed.

Lemma unlink_tree s d n fl : shrinks s (tree_of (unlink_sem s d n fl) s).
Proof.
  pose proof (unlink_sem_cases s d n fl) as C.
  destruct (unlink_sem s d n fl); cbn [tree_of]; try apply shrinks_refl; [|destruct C].
  destruct C as [-> _]. apply del_ent_shrinks.
Qed.

Lemma link_tree s od on nd nn fl :
  tree_of (link_sem s od on nd nn fl) s = s \/
  exists c, is_dir s nd = true /\ nm_ok nn /\ lookup s od on = Some c /\ is_dir s c = false /\ lookup s nd nn = None /\
            tree_of (link_sem s od on nd nn fl) s = add_ent s nd nn c.
Proof.
  unfold link_sem. destruct (negb (N.eqb fl 0) || negb (Dyn.plain on && Dyn.plain nn)) eqn:E0; [left; reflexivity|].
  apply orb_false_iff in E0. destruct E0 as [_ E0]. apply negb_false_iff in E0. apply andb_true_iff in E0. destruct E0 as [_ Hpn].
  destruct (is_dir s od); cbn [negb]; [|left; reflexivity].
  destruct (lookup s od on) as [c|] eqn:El; [|left; reflexivity].
  destruct (is_dir s nd) eqn:Ed; cbn [negb]; [|left; reflexivity].
  destruct (too_long nn) eqn:Et; [left; reflexivity|]. destruct (lookup s nd nn) eqn:El2; [left; reflexivity|].
  destruct (is_dir s c) eqn:Ec; [left; reflexivity|]. right. exists c. repeat split; assumption || reflexivity.
Qed.

Lemma reparent_nondir s c d : is_dir s c = false -> reparent s c d = s.
Proof. intro H. unfold reparent. rewrite H. reflexivity. Qed.

(* a renameat2 that changed the tree: the source entry moved to the destination (nothing was there; or what was there is
   replaced), or the two changed places.  A non-directory is not re-parented: [reparent] of one changes nothing. *)
Lemma rename_cases s od on nd nn fl :
  match rename_sem s od on nd nn fl with
  | EUnit T =>
      T = s \/
      exists c, is_dir s od = true /\ is_dir s nd = true /\ nm_ok on /\ nm_ok nn /\ lookup s od on = Some c /\
        ((lookup s nd nn = None /\ T = reparent (add_ent (del_ent s od on) nd nn c) c nd) \/
         exists e, lookup s nd nn = Some e /\ Nat.eqb c e = false /\
           (T = reparent (add_ent (del_ent (del_ent s od on) nd nn) nd nn c) c nd \/
            T = reparent (reparent (add_ent (add_ent (del_ent (del_ent s od on) nd nn) nd nn c) od on e) c nd) e od))
  | _ => True
  end.
Proof.
  unfold rename_sem. destruct (negb (Dyn.plain on && Dyn.plain nn)) eqn:E0; [exact I|].
  apply negb_false_iff in E0. apply andb_true_iff in E0. destruct E0 as [Hpo Hpn].
  destruct (negb (N.eqb fl 0 || N.eqb fl RENAME_NOREPLACE || N.eqb fl RENAME_EXCHANGE)); [exact I|].
  destruct (is_dir s od) eqn:Eod; cbn [negb orb]; [|exact I]. destruct (is_dir s nd) eqn:End_; cbn [negb]; [|exact I].
  destruct (too_long on) eqn:Eto; [exact I|]. destruct (lookup s od on) as [c|] eqn:Elo; [|exact I].
  destruct (too_long nn) eqn:Etn; [exact I|].
  (* the guards decided so far, in the shape the goal's conjunction has after the destructs above *)
  assert (Hfacts : forall X : Prop, X -> true = true /\ true = true /\ nm_ok on /\ nm_ok nn /\ Some c = Some c /\ X)
    by (intros X HX; repeat split; assumption).
  destruct (lookup s nd nn) as [e|] eqn:Eln.
  - destruct (N.eqb fl RENAME_NOREPLACE); [exact I|]. destruct (is_dir s c && is_anc s c nd); [exact I|].
    destruct (N.eqb fl RENAME_EXCHANGE); (destruct (is_dir s e && is_anc s e od); [exact I|]);
      (destruct (Nat.eqb c e) eqn:Ece; [left; reflexivity|]).
    + right. exists c. apply Hfacts. right. exists e. split; [reflexivity|]. split; [exact Ece|right; reflexivity].
    + destruct (is_dir s c) eqn:Ec.
      * destruct (is_dir s e); cbn [negb]; [|exact I]. destruct (has_child s e); [exact I|].
        right. exists c. apply Hfacts. right. exists e. split; [reflexivity|]. split; [exact Ece|left; reflexivity].
      * destruct (is_dir s e); [exact I|]. right. exists c. apply Hfacts. right. exists e. split; [reflexivity|]. split; [exact Ece|left].
        symmetry. apply reparent_nondir. exact Ec.
  - destruct (N.eqb fl RENAME_EXCHANGE); [exact I|]. destruct (is_dir s c && is_anc s c nd); [exact I|].
    right. exists c. apply Hfacts. left. split; reflexivity.
Qed.

Lemma mk_dir_tree s o p s1 : mk_dir s o p = inl s1 -> s1 = tree_of (create_sem s o p FSModel.KDir) s.
Proof.
  unfold mk_dir. destruct (create_sem s o p FSModel.KDir) as [|e|s2|s2 o2]; try discriminate.
  - destruct (N.eqb e EEXIST); intro H; inversion H; reflexivity.
  - intro H; inversion H; reflexivity.
Qed.

Lemma mk_spec_pres (P : fs -> Prop) : (forall s o p, P s -> P (tree_of (create_sem s o p FSModel.KDir) s)) ->
  forall ps s o, P s -> P (fst (mk_spec s o ps)).
Proof.
  intro Hc. induction ps as [|p rest IH]; intros s o Hi; cbn [mk_spec]; [exact Hi|].
  destruct (mk_dir s o p) as [s1|e] eqn:Ed; [|exact Hi].
  assert (Hi1 : P s1) by (rewrite (mk_dir_tree _ _ _ _ Ed); apply Hc, Hi).
  destruct (mk_open s1 o p) as [c|e]; [apply IH; exact Hi1|exact Hi1].
Qed.

Lemma adds_inv s s' : adds s s' -> inv s -> inv s'.
Proof.
  intros [->|(d & n & k & Hd & Hn & Hl & ->)] Hi; [exact Hi|].
  apply inv_add_obj; [exact Hi|exact (is_dir_lt _ _ Hd)|exact Hn|exact Hl].
Qed.

Lemma link_inv s od on nd nn fl : inv s -> inv (tree_of (link_sem s od on nd nn fl) s).
Proof.
  intro Hi. destruct (link_tree s od on nd nn fl) as [->|(c & Hd & Hn & Hl & _ & Hl2 & ->)]; [exact Hi|].
  apply inv_add_ent; [exact Hi|exact (is_dir_lt _ _ Hd)|exact (inv_lookup_lt _ _ _ _ Hi Hl)|exact Hn|exact Hl2].
Qed.

Lemma lookup_add_ent s d n c d' n' :
  lookup (add_ent s d n c) d' n' = match lookup s d' n' with Some x => Some x | None => if Nat.eqb d' d && beq n' n then Some c else None end.
Proof. unfold FSModel.lookup, add_ent. cbn [FSModel.ents]. rewrite find_ent_app. cbn [FSModel.find_ent]. reflexivity. Qed.

Lemma kinds_del s d n : kinds (del_ent s d n) = kinds s. Proof. reflexivity. Qed.
Lemma kinds_add s d n c : kinds (add_ent s d n c) = kinds s. Proof. reflexivity. Qed.
Lemma kinds_reparent s c d : kinds (reparent s c d) = kinds s. Proof. unfold reparent. destruct (is_dir s c); reflexivity. Qed.

Lemma rename_inv s od on nd nn fl : inv s -> inv (tree_of (rename_sem s od on nd nn fl) s).
Proof.
  intro Hi. pose proof (rename_cases s od on nd nn fl) as C. pose proof (rename_sem_not_open s od on nd nn fl) as Hno.
  destruct (rename_sem s od on nd nn fl) as [| |T|]; cbn [tree_of]; [exact Hi|exact Hi| |destruct Hno].
  destruct C as [->|(c & Eod & End_ & Hon & Hnn & Elo & Hshape)]; [exact Hi|].
  pose proof (is_dir_lt _ _ Eod) as Hod. pose proof (is_dir_lt _ _ End_) as Hnd. pose proof (inv_lookup_lt _ _ _ _ Hi Elo) as Hc.
  destruct Hshape as [[Eln ->]|(e & Eln & Ece & Hshape)].
  - apply inv_reparent; [|exact Hnd].
    apply inv_add_ent; [apply inv_del_ent, Hi|exact Hnd|exact Hc|exact Hnn|exact (lookup_shrinks_none _ _ _ _ (del_ent_shrinks _ _ _) Eln)].
  - pose proof (inv_lookup_lt _ _ _ _ Hi Eln) as He.
    assert (Hbase : inv (del_ent (del_ent s od on) nd nn)) by (apply inv_del_ent, inv_del_ent, Hi).
    assert (Hl1 : lookup (del_ent (del_ent s od on) nd nn) nd nn = None) by apply lookup_del_ent.
    destruct Hshape as [->| ->].
    + apply inv_reparent; [|exact Hnd]. apply inv_add_ent; assumption.
    + apply inv_reparent; [apply inv_reparent|rewrite kinds_reparent; exact Hod]; [|exact Hnd].
      apply inv_add_ent; [apply inv_add_ent; try assumption| | | |]; try assumption.
      rewrite lookup_add_ent, (lookup_shrinks_none _ _ od on (del_ent_shrinks _ nd nn) (lookup_del_ent s od on)).
      destruct (Nat.eqb_spec od nd) as [->|_]; cbn [andb]; [|reflexivity].
      destruct (beq on nn) eqn:Eb; [|reflexivity]. exfalso. apply beq_true_iff in Eb. subst nn.
      rewrite Elo in Eln. inversion Eln; subst e. rewrite Nat.eqb_refl in Ece. discriminate.
Qed.

Inductive op :=
| OCreate (d : nat) (n : bytes) (k : FSModel.kind)       (* mkdirat / mknodat / symlinkat *)
| OCreat (d : nat) (n : bytes) (fl : N)                   (* openat(O_CREAT) *)
| OUnlink (d : nat) (n : bytes) (fl : N)                  (* unlinkat, with or without AT_REMOVEDIR *)
| OLink (od : nat) (on : bytes) (nd : nat) (nn : bytes) (fl : N)
| ORename (od : nat) (on : bytes) (nd : nat) (nn : bytes) (fl : N)
| OMkdirAll (o : nat) (ps : list bytes)
| ORemoveAll (f : nat) (d : nat) (n : bytes).

Definition apply_op (s : fs) (o : op) : fs :=
  match o with
  | OCreate d n k => tree_of (create_sem s d n k) s
  | OCreat d n fl => tree_of (creat_sem s d n fl) s
  | OUnlink d n fl => tree_of (unlink_sem s d n fl) s
  | OLink od on nd nn fl => tree_of (link_sem s od on nd nn fl) s
  | ORename od on nd nn fl => tree_of (rename_sem s od on nd nn fl) s
  | OMkdirAll o ps => fst (mk_spec s o ps)
  | ORemoveAll f d n => match rm_all f s d n with Some (s', _) => s' | None => s end
  end.

Lemma apply_op_shrinks s o : match o with OUnlink _ _ _ | ORemoveAll _ _ _ => shrinks s (apply_op s o) | _ => True end.
Proof.
  destruct o as [| |d n fl| | | |f d n]; try exact I; cbn [apply_op]; [apply unlink_tree|].
  destruct (rm_all f s d n) as [[s' r]|] eqn:E; [exact (rm_all_shrinks _ _ _ _ _ _ E)|apply shrinks_refl].
Qed.

Lemma apply_op_inv s o : inv s -> inv (apply_op s o).
Proof.
  intro Hi. pose proof (apply_op_shrinks s o) as Hs. destruct o; cbn [apply_op]; try exact (inv_shrinks _ _ Hs Hi).
  - exact (adds_inv _ _ (create_tree _ _ _ _) Hi).
  - exact (adds_inv _ _ (creat_tree _ _ _ _) Hi).
  - apply link_inv, Hi.
  - apply rename_inv, Hi.
  - apply (mk_spec_pres inv); [intros s1 o1 p; apply adds_inv, create_tree|exact Hi].
Qed.

Definition root_only : fs := {| kinds := [FSModel.KDir]; parents := [0%nat]; ents := [] |}.

Lemma inv_root_only : inv root_only.
Proof.
  unfold inv, root_only. cbn [FSModel.kinds FSModel.parents FSModel.ents length].
  split; [apply Nat.lt_0_1|]. split; [reflexivity|]. split; [intros e []|]. split; [intros d n1 n2 c1 c2 []|]. constructor; [apply Nat.lt_0_1|constructor].
Qed.

(* every tree the operations can produce from an empty root -- in any order, any number of them, with any arguments,
   failing or not -- satisfies what the functional theorems assume *)
Theorem inv_reachable ops : inv (fold_left apply_op ops root_only).
Proof.
  assert (H : forall s, inv s -> inv (fold_left apply_op ops s)).
  { induction ops as [|o ops IH]; intros s Hi; cbn [fold_left]; [exact Hi|]. apply IH, apply_op_inv, Hi. }
  exact (H _ inv_root_only).
Qed.

Corollary reachable_premises ops :
  let s := fold_left apply_op ops root_only in closed2 s /\ ents_ok s /\ uniq s /\ dirs_ok s /\ tree_ok s.
Proof. exact (inv_facts _ (inv_reachable ops)). Qed.
