(* EffectProofs.v -- C03 / C14, for ALL kernel answers: how many calls that change the tree an
   operation can issue.  Lookups of either backend -- the emulated walk with its procfs
   round-trips (including the creation of a fresh procfs handle when the global one is masked),
   the openat2 retry loops -- issue NONE; create (every inode type) / create_file / rename /
   remove_file / remove_dir issue at most ONE.  The first is the instance [Je] of the one walk
   through the programs in DisciplineProofs / OpathDisc / RootDisc; only the wrappers are
   looked at here. *)
From PV Require Import ProgTac RootM DisciplineProofs RootDisc FaultProofs.

Definition tree_eff (c : call) : bool :=
  match c with
  | Mkdirat _ _ _ | Mknodat _ _ _ _ | Unlinkat _ _ _ | Linkat _ _ _ _ _ | Symlinkat _ _ _
  | Renameat _ _ _ _ | Renameat2 _ _ _ _ _ => true
  | Openat _ _ fl _ => has fl O_CREAT
  | Openat2 _ _ fl _ _ => has fl O_CREAT
  | _ => false
  end.

(* the calls counted below: those that change the tree, and -- so that the same judgement
   separates lookups from everything the dynamic kernel model (theories/Dyn.v) answers
   differently from the static one -- the two calls by which remove_all scans a directory
   (getdents64, fcntl(F_GETFL)).  A lookup issues none of them. *)
Definition eff (c : call) : bool :=
  match c with
  | Mkdirat _ _ _ | Mknodat _ _ _ _ | Unlinkat _ _ _ | Linkat _ _ _ _ _ | Symlinkat _ _ _
  | Renameat _ _ _ _ | Renameat2 _ _ _ _ _ => true
  | Openat _ _ fl _ => has fl O_CREAT
  | Openat2 _ _ fl _ _ => has fl O_CREAT
  | Getdents _ | FcntlGetfl _ => true
  | _ => false
  end.

Lemma tree_eff_eff c : tree_eff c = true -> eff c = true.
Proof. destruct c; cbn; intro H; try exact H; discriminate. Qed.

Definition ne {A} (p : prog A) : Prop := calls_le eff 0 p.

Lemma ne_ret {A} (a : A) : ne (Ret a).
Proof. constructor. Qed.

Lemma ne_call {A} c (k : resp -> prog A) : eff c = false -> (forall r, ne (k r)) -> ne (Call c k).
Proof. intros H Hk. apply cl_call_miss; assumption. Qed.

Lemma ne_bind {A B} (p : prog A) (g : A -> prog B) : ne p -> (forall a, ne (g a)) -> ne (bind p g).
Proof. intros Hp Hg. unfold ne. change 0%nat with (0 + 0)%nat. apply calls_le_bind; assumption. Qed.

Lemma ne_le {A} n (p : prog A) : ne p -> calls_le eff n p.
Proof. intro H. eapply calls_le_mono; [exact H|apply Nat.le_0_l]. Qed.

Lemma ne_ac {A} (p : prog A) : ne p -> all_calls (fun c => eff c = false) p.
Proof. unfold ne. remember 0%nat as n eqn:Hn. intro H. induction H; try discriminate; constructor; auto. Qed.

Lemma ne_if {A} (b : bool) (p q : prog A) : ne p -> ne q -> ne (if b then p else q).
Proof. destruct b; auto. Qed.

Lemma close_ne {A} fd (p : prog A) : ne p -> ne (close fd ;;; p).
Proof. intro Hp. apply ne_call; [reflexivity|]. intro. exact Hp. Qed.

Section Wrappers.
Variable fz : nat.

Lemma frozen_ne fuel fd : ne (frozen fuel fd).
Proof.
  apply calls_le_0. eapply ac_weaken; [|apply frozen_calls].
  intros c [ -> |[[n ->]|[n ->]]]; reflexivity.
Qed.

Lemma fail1_ne {A} fd e : ne (@fail1 fz A fd e).
Proof. apply ne_bind; [apply frozen_ne|intro; apply ne_ret]. Qed.

Lemma fail2_ne {A} fd1 fd2 e : ne (@fail2 fz A fd1 fd2 e).
Proof. apply ne_bind; [apply frozen_ne|intro; apply (@fail1_ne A)]. Qed.

(* ---- the wrappers: each issues the one call it is named after ----------------------------- *)

Lemma rustix_path_ne {A} fd path (k : prog (result A N)) : ne k -> ne (rustix_path fz fd path k).
Proof. apply ne_if, fail1_ne. Qed.

Lemma decoded_ne {A} fd (dec : resp -> result A N) r :
  ne (match dec r with Ok a => Ret (Ok a) | Err e => fail1 fz fd e end).
Proof. destruct (dec r); [apply ne_ret|apply fail1_ne]. Qed.

Lemma wcall_ne {A} fd c (dec : resp -> result A N) :
  eff c = false -> ne (Call c (fun r => match dec r with Ok a => Ret (Ok a) | Err e => fail1 fz fd e end)).
Proof. intro Hc. apply ne_call; [exact Hc|]. apply decoded_ne. Qed.

Lemma simple1_ne {A} fd path c (dec : resp -> result A N) : eff c = false -> ne (simple1 fz fd path c dec).
Proof. intro Hc. apply ne_if; [apply ne_ret|]. apply rustix_path_ne, wcall_ne, Hc. Qed.

Lemma w_fstatat_ne fd n : ne (w_fstatat fz fd n).
Proof. apply simple1_ne. reflexivity. Qed.
Lemma w_statx_ne fd n m : ne (w_statx fz fd n m).
Proof. apply simple1_ne. reflexivity. Qed.
Lemma w_fstatfs_ne fd : ne (w_fstatfs fz fd).
Proof. apply ne_if; [apply ne_ret|]. apply wcall_ne. reflexivity. Qed.
Lemma w_readlinkat_ne fd p : ne (w_readlinkat fz fd p).
Proof.
  apply ne_if; [apply ne_ret|]. apply rustix_path_ne, ne_call; [reflexivity|]. intro r.
  destruct (as_bytes r); [|apply fail1_ne]. apply ne_if; [apply fail1_ne|apply ne_ret].
Qed.
Lemma dup_cloexec_ne fd : ne (dup_cloexec fd).
Proof. apply ne_call; [reflexivity|]. intro; apply ne_ret. Qed.
Lemma w_fsopen_ne n fl : ne (w_fsopen n fl).
Proof. apply ne_call; [reflexivity|]. intro; apply ne_ret. Qed.
Lemma w_fsconfig_set_string_ne sfd k v : ne (w_fsconfig_set_string fz sfd k v).
Proof. apply ne_if; [apply ne_ret|]. apply wcall_ne. reflexivity. Qed.
Lemma w_fsconfig_create_ne sfd : ne (w_fsconfig_create fz sfd).
Proof. apply ne_if; [apply ne_ret|]. apply wcall_ne. reflexivity. Qed.
Lemma w_fsmount_ne sfd fl at_ : ne (w_fsmount fz sfd fl at_).
Proof. apply ne_if; [apply ne_ret|]. apply wcall_ne. reflexivity. Qed.
Lemma w_open_tree_ne fd p fl : ne (w_open_tree fz fd p fl).
Proof. apply ne_if; [apply ne_ret|]. apply rustix_path_ne, wcall_ne. reflexivity. Qed.

(* the opens: O_CREAT reaches the kernel only if the caller's flags have it *)
Lemma w_openat_follow_ne fd n fl m : nc fl -> ne (w_openat_follow fz fd n fl m).
Proof.
  intro Hfl. apply ne_if; [apply ne_ret|]. apply rustix_path_ne, wcall_ne.
  apply nc_lor; [apply nc_lor; [exact Hfl|]|]; reflexivity.
Qed.

Lemma w_openat_ne fd n fl m : nc fl -> ne (w_openat fz fd n fl m).
Proof. intro Hfl. apply w_openat_follow_ne, nc_lor; [exact Hfl|reflexivity]. Qed.

Lemma w_openat2_ne fd p fl m rs : nc fl -> ne (w_openat2 fz fd p fl m rs).
Proof.
  intro Hfl. apply ne_if; [apply ne_ret|]. apply ne_if; [apply fail1_ne|]. apply wcall_ne.
  unfold eff, openat2_flags. pose proof (nc_lor _ OPENAT2_FORCED Hfl eq_refl) as H.
  destruct (has _ O_PATH); [exact H|apply nc_lor; [exact H|reflexivity]].
Qed.

End Wrappers.

(* ---- the procfs operations: instances of the one traversal (DisciplineProofs) ------------- *)

Definition Pe (c : call) : Prop := eff c = false.

Lemma ne_okp {A} (Q : A -> Prop) (p : prog A) : ne p -> (forall a, Q a) -> okp Pe TS Q p.
Proof. intros H HQ. apply ne_ac in H. induction H; constructor; auto. exact I. Qed.

Lemma okp_ne {A} (Q : A -> Prop) (p : prog A) : okp Pe TS Q p -> ne p.
Proof. intro H. apply calls_le_0. eapply okp_all_calls, H. Qed.

(* no counted call; any panic, descriptor and result; flag words without O_CREAT *)
Definition Je : judge := {|
  jP := Pe; jP' := Pe; jS := TS; jG := fun _ => True; jF := nc;
  j_weak := fun _ H => H; j_nc := fun _ H => H; j_lor := nc_lor;
  j_thread_self := I; j_fstat := fun _ => I; j_rc := I; j_partial := fun _ => I;
  j_gettid := eq_refl; j_geteuid := eq_refl; j_faccessat := fun _ _ _ _ => eq_refl;
  j_close := fun fd _ => ne_okp _ _ (close_ne fd (Ret tt) (ne_ret tt)) (fun _ => I);
  j_dup := fun fd _ => ne_okp _ _ (dup_cloexec_ne fd) okR_T;
  j_openat := fun fz fd n fl m _ _ H => ne_okp _ _ (w_openat_ne fz fd n fl m H) okR_T;
  j_openat_follow := fun fz fd n fl m _ _ H => ne_okp _ _ (w_openat_follow_ne fz fd n fl m H) okR_T;
  j_openat2 := fun fz fd p fl m0 m rf _ _ H => ne_okp _ _ (w_openat2_ne fz fd p fl m0 _ H) okR_T;
  j_readlinkat := fun fz fd _ => ne_okp _ _ (w_readlinkat_ne fz fd []) okR_T;
  j_fstatat := fun fz fd n _ _ => ne_okp _ _ (w_fstatat_ne fz fd n) okR_T;
  j_statx := fun fz fd n mask _ _ => ne_okp _ _ (w_statx_ne fz fd n mask) okR_T;
  j_fstatfs := fun fz fd _ => ne_okp _ _ (w_fstatfs_ne fz fd) okR_T;
  j_fsopen := ne_okp _ _ (w_fsopen_ne _ _) okR_T;
  j_fsconfig_set_string := fun fz sfd k v _ => ne_okp _ _ (w_fsconfig_set_string_ne fz sfd k v) okR_T;
  j_fsconfig_create := fun fz sfd _ => ne_okp _ _ (w_fsconfig_create_ne fz sfd) okR_T;
  j_fsmount := fun fz sfd _ => ne_okp _ _ (w_fsmount_ne fz sfd _ _) okR_T;
  j_open_tree := fun fz fl => ne_okp _ _ (w_open_tree_ne fz _ _ _) okR_T;
  j_openat_proc := fun fz m => ne_okp _ _ (w_openat_ne fz _ _ UNSAFE_OPEN_FLAGS m eq_refl) okR_T |}.

Section Eff.
Variable fz : nat.
Variable cfg : bool.

Lemma popen_ne fuel h base sub fl : ne (popen fz cfg fuel h base sub fl).
Proof. exact (okp_ne _ _ (popen_ok Je fz cfg fuel h base sub fl I)). Qed.

Lemma preadlink_ne fuel h base sub : ne (preadlink fz cfg fuel h base sub).
Proof. exact (okp_ne _ _ (preadlink_ok Je fz cfg fuel h base sub I)). Qed.

Lemma popen_follow_ne fuel h base sub fl : ne (popen_follow fz cfg fuel h base sub fl).
Proof. exact (okp_ne _ _ (popen_follow_ok Je fz cfg fuel h base sub fl I)). Qed.

Lemma reopen_ne fuel gh fd fl : ne (reopen fz cfg fuel gh fd fl).
Proof. exact (okp_ne _ _ (reopen_ok Je fz cfg fuel gh fd fl I I)). Qed.

Variable pfuel : nat.
Variable gh : phandle.
Variable ps : N.
Variable rs : resolver.

Lemma r_resolve_ne root path nf : ne (r_resolve fz cfg pfuel gh ps rs root path nf).
Proof. exact (okp_ne _ _ (r_resolve_ok Je fz cfg pfuel gh ps I rs root path nf I)). Qed.

Lemma r_resolve_partial_ne root path nf : ne (r_resolve_partial fz cfg pfuel gh ps rs root path nf).
Proof. exact (okp_ne _ _ (r_resolve_partial_ok Je fz cfg pfuel gh ps I rs root path nf I)). Qed.

Lemma parent_and_name_ne root path : ne (parent_and_name fz cfg pfuel gh ps rs root path).
Proof. exact (okp_ne _ _ (parent_and_name_ok Je fz cfg pfuel gh ps I rs root path I)). Qed.

(* ---- at most one ---------------------------------------------------------------------------- *)

Lemma cl_bind_l {A B} n (p : prog A) (g : A -> prog B) :
  calls_le eff n p -> (forall a, ne (g a)) -> calls_le eff n (bind p g).
Proof. intros Hp Hg. rewrite <- (Nat.add_0_r n). apply calls_le_bind; assumption. Qed.

Lemma cl_bind_r {A B} n (p : prog A) (g : A -> prog B) :
  ne p -> (forall a, calls_le eff n (g a)) -> calls_le eff n (bind p g).
Proof. intros Hp Hg. change n with (0 + n)%nat. apply calls_le_bind; assumption. Qed.

(* a wrapper's call, counted or not, and nothing counted after it *)
Lemma wcall_one {A} c (k : resp -> prog A) : (forall r, ne (k r)) -> calls_le eff 1 (Call c k).
Proof.
  intro Hk. destruct (eff c) eqn:Ec.
  - apply cl_call_hit; assumption.
  - apply cl_call_miss; [exact Ec|]. intro r. apply ne_le, Hk.
Qed.

Lemma one_then_close {A} (p : prog (result A N)) dir : calls_le eff 1 p ->
  calls_le eff 1 (r <- os p ;; close dir ;;; Ret r).
Proof.
  intro Hp. apply cl_bind_l; [|intro r; apply close_ne, ne_ret].
  apply cl_bind_l; [exact Hp|intro; apply ne_ret].
Qed.

Lemma simple1_one {A} fd path c (dec : resp -> result A N) : calls_le eff 1 (simple1 fz fd path c dec).
Proof.
  unfold simple1, rustix_path. destruct (negb (valid_fd fd)); [constructor|].
  destruct (has_nul path); [apply ne_le, fail1_ne|]. apply wcall_one, decoded_ne.
Qed.

Lemma w_symlinkat_one t fd n : calls_le eff 1 (w_symlinkat fz t fd n).
Proof.
  unfold w_symlinkat. destruct (negb (valid_fd fd)); [constructor|].
  destruct (_ || _); [apply ne_le, fail1_ne|]. apply wcall_one, decoded_ne.
Qed.

Lemma w_openat_one fd n fl m : calls_le eff 1 (w_openat fz fd n fl m).
Proof.
  unfold w_openat, w_openat_follow, rustix_path. destruct (negb (valid_fd fd)); [constructor|].
  destruct (has_nul n); [apply ne_le, fail1_ne|]. apply wcall_one, decoded_ne.
Qed.

Lemma two_fd_one ofd on nfd nn c : calls_le eff 1 (two_fd fz ofd on nfd nn c).
Proof.
  unfold two_fd. destruct (negb (valid_fd ofd)); [constructor|]. destruct (negb (valid_fd nfd)); [constructor|].
  destruct (_ || _); [apply ne_le, fail2_ne|]. apply wcall_one. intro r.
  destruct (as_unit r); [apply ne_ret|apply fail2_ne].
Qed.

Lemma after_parent {B} (n : nat) (K : Z * bytes -> prog (result B ekind)) root path :
  (forall dn, calls_le eff n (K dn)) ->
  calls_le eff n (dn <-? parent_and_name fz cfg pfuel gh ps rs root path ;; K dn).
Proof.
  intro HK. unfold bindR. apply cl_bind_r; [apply parent_and_name_ne|].
  intros [dn|e]; [apply HK|constructor].
Qed.

(* create: at most one tree-changing call, whatever the inode type (hard links resolve a second parent first) *)
Theorem root_create_one root path ty : calls_le eff 1 (root_create fz cfg pfuel gh ps rs root path ty).
Proof.
  unfold root_create. apply after_parent. intros [dir name].
  destruct ty as [m|m|target|target|m|m d|m d];
    try (apply one_then_close; first [apply simple1_one|apply w_symlinkat_one]).
  apply cl_bind_r; [apply parent_and_name_ne|].
  intros [[olddir oldname]|e]; [|apply ne_le, close_ne, ne_ret].
  apply cl_bind_l; [|intro; apply close_ne, close_ne, ne_ret].
  apply cl_bind_l; [apply two_fd_one|intro; apply ne_ret].
Qed.

Theorem root_create_file_one root path fl mode : calls_le eff 1 (root_create_file fz cfg pfuel gh ps rs root path fl mode).
Proof.
  unfold root_create_file. destruct (CREATE_FILE_REFUSES_OPATH && has fl O_PATH); [constructor|].
  apply after_parent. intros [dir name]. apply one_then_close, w_openat_one.
Qed.

Theorem root_rename_one root src dst rfl : calls_le eff 1 (root_rename fz cfg pfuel gh ps rs root src dst rfl).
Proof.
  unfold root_rename. apply after_parent. intros [sdir sname].
  apply cl_bind_r; [apply parent_and_name_ne|].
  intros [[ddir dname]|e]; [|apply ne_le, close_ne, ne_ret].
  apply cl_bind_l; [|intro; apply close_ne, close_ne, ne_ret].
  apply cl_bind_l; [|intro; apply ne_ret].
  unfold w_renameat2, w_renameat. destruct (N.eqb rfl 0); apply two_fd_one.
Qed.

Theorem root_remove_inode_one root path isdir : calls_le eff 1 (root_remove_inode fz cfg pfuel gh ps rs root path isdir).
Proof.
  unfold root_remove_inode. apply after_parent. intros [dir name]. apply one_then_close. apply simple1_one.
Qed.

End Eff.
