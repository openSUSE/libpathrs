(* DynProofs.v -- the dynamic kernel (theories/Dyn.v).
   1. The bridge: a program that issues no tree-changing and no directory-scan call ([ne], proved
      for every lookup of either backend in EffectProofs, for ALL answers) runs on the dynamic
      kernel exactly as on the static kernel over the current tree.  Every static theorem
      (C01, C04, C14's parent object) therefore holds at every state of the dynamic kernel.
   2. How [drun] goes through the wrapper layer of Sysw.v: bind, the error paths, and one lemma
      per tree-changing wrapper giving the state after the call as the effect ([create_sem],
      [unlink_sem], [link_sem], [rename_sem]) of the tree. *)
From PV Require Import Dyn StaticProofs ProgTac StaticBal EffectProofs.

Lemma reloc_same pb t : reloc pb pb t = t.
Proof.
  unfold reloc. induction t as [|[f o] t IH]; cbn [map fst snd]; [reflexivity|].
  rewrite IH. rewrite Nat.sub_diag, Nat.add_0_r. destruct (Nat.leb pb o); reflexivity.
Qed.

Lemma tree_obj_get s t fd o : tget t fd = Some o -> (o < NPB s)%nat -> tree_obj s t fd = inl (Some o).
Proof. intros H Hlt. unfold tree_obj. rewrite H. destruct (Nat.ltb_spec o (NPB s)); [reflexivity|lia]. Qed.

Lemma dsem_on1 s t seen fd d f : tget t fd = Some d -> (d < NPB s)%nat -> on1 s t seen fd f = of_eres s seen (f d).
Proof. intros H Hlt. unfold on1. rewrite (tree_obj_get s t fd d H Hlt). reflexivity. Qed.

Lemma dsem_on2 s t seen fd1 fd2 d1 d2 f : tget t fd1 = Some d1 -> (d1 < NPB s)%nat -> tget t fd2 = Some d2 -> (d2 < NPB s)%nat ->
  on2 s t seen fd1 fd2 f = of_eres s seen (f d1 d2).
Proof. intros H1 L1 H2 L2. unfold on2. rewrite (tree_obj_get s t fd1 d1 H1 L1), (tree_obj_get s t fd2 d2 H2 L2). reflexivity. Qed.

Definition not_open (E : eres) : Prop := match E with EOpen _ _ => False | _ => True end.

Lemma not_open_if (b : bool) x y : not_open x -> not_open y -> not_open (if b then x else y).
Proof. destruct b; auto. Qed.

Lemma not_open_opt {A} (o : option A) f y : (forall a, not_open (f a)) -> not_open y -> not_open (match o with Some a => f a | None => y end).
Proof. destruct o; auto. Qed.

(* an effect function is a tree of tests with a constructor at every leaf *)
Ltac leaves := repeat first [exact I | apply not_open_if | apply not_open_opt; [intro|]].

Lemma create_sem_not_open s d n k : not_open (create_sem s d n k).
Proof. unfold create_sem. leaves. Qed.

(* what unlinkat answers: never a descriptor; when it succeeds, the entry was there -- not a directory
   (flags 0), an empty directory (AT_REMOVEDIR) -- and is taken out *)
Lemma unlink_sem_cases s d n fl :
  match unlink_sem s d n fl with
  | EUnit s' => s' = del_ent s d n /\ exists c, FSModel.lookup s d n = Some c /\
                  if N.eqb fl 0 then is_dir s c = false else is_dir s c = true /\ has_child s c = false
  | EOpen _ _ => False
  | _ => True
  end.
Proof.
  unfold unlink_sem. destruct (negb (N.eqb fl 0 || N.eqb fl AT_REMOVEDIR)); [exact I|]. destruct (negb (is_dir s d)); [exact I|].
  destruct (is_nil n); [exact I|]. destruct (has_slash n || has_nul n); [exact I|]. destruct (N.eqb fl 0).
  - destruct (is_dot n || is_dotdot n); [exact I|]. destruct (FSModel.lookup s d n) as [c|]; [|exact I].
    destruct (is_dir s c) eqn:Ec; [exact I|]. split; [reflexivity|]. exists c. split; [reflexivity|exact Ec].
  - destruct (is_dot n); [exact I|]. destruct (is_dotdot n); [exact I|]. destruct (FSModel.lookup s d n) as [c|]; [|exact I].
    destruct (is_dir s c) eqn:Ec; [|exact I]. destruct (has_child s c) eqn:Eh; [exact I|].
    split; [reflexivity|]. exists c. split; [reflexivity|]. split; [exact Ec|exact Eh].
Qed.

Lemma unlink_not_open s d n fl : not_open (unlink_sem s d n fl).
Proof. pose proof (unlink_sem_cases s d n fl) as C. destruct (unlink_sem s d n fl); try exact I. exact C. Qed.

Lemma link_sem_not_open s od on nd nn fl : not_open (link_sem s od on nd nn fl).
Proof. unfold link_sem. leaves. Qed.

Lemma rename_sem_not_open s od on nd nn fl : not_open (rename_sem s od on nd nn fl).
Proof. unfold rename_sem. leaves. Qed.

Lemma creat_sem_not_unit s d n fl s' : creat_sem s d n fl <> EUnit s'.
Proof.
  unfold creat_sem. destruct (has fl O_PATH || has fl O_DIRECTORY || negb (has fl O_NOFOLLOW)); [discriminate|].
  destruct (negb (is_dir s d)); [discriminate|]. destruct (is_nil n); [discriminate|].
  destruct (has_slash n || has_nul n); [discriminate|]. destruct (is_dot n || is_dotdot n); [discriminate|].
  destruct (too_long n); [discriminate|]. destruct (FSModel.lookup s d n) as [c|]; [|discriminate].
  destruct (has fl O_EXCL); [discriminate|]. destruct (FSModel.kind_of s c); discriminate.
Qed.

Lemma plain_facts p : Dyn.plain p = true ->
  is_nil p = false /\ is_dot p = false /\ is_dotdot p = false /\ has_slash p = false /\ has_nul p = false.
Proof.
  unfold Dyn.plain. intro H. apply negb_true_iff in H.
  repeat (apply orb_false_iff in H; destruct H as [H ?]). repeat split; assumption.
Qed.

Lemma plain_no_dots p : Dyn.plain p = true -> dot_or_dotdot p = false.
Proof. intro Hp. destruct (plain_facts _ Hp) as (_ & Hd & Hdd & _). unfold dot_or_dotdot. rewrite Hd, Hdd. reflexivity. Qed.

Lemma create_sem_plain s d n k : Dyn.plain n = true ->
  create_sem s d n k = if negb (is_dir s d) then EErr ENOTDIR else if too_long n then EErr ENAMETOOLONG
                       else match FSModel.lookup s d n with Some _ => EErr EEXIST | None => EUnit (FSModel.add_obj s d n k) end.
Proof.
  intro Hp. destruct (plain_facts _ Hp) as (Hnil & Hd & Hdd & Hsl & Hnu).
  unfold create_sem. rewrite Hnil, Hsl, Hnu, Hd, Hdd. reflexivity.
Qed.

Lemma create_sem_plain_not_out s d n k : Dyn.plain n = true -> create_sem s d n k <> EOut.
Proof.
  intro Hp. rewrite (create_sem_plain s d n k Hp).
  destruct (negb (is_dir s d)); [discriminate|]. destruct (too_long n); [discriminate|]. destruct (FSModel.lookup s d n); discriminate.
Qed.

Section DP.
Variable rp : bytes.
Notation drun := (drun rp).
Notation danswer := (danswer rp).
Notation dsem := (dsem rp).

Definition seen_after (c : call) (seen : list Z) : list Z :=
  match c with Close fd => zrem fd seen | _ => seen end.

Lemma danswer_static st c : eff c = false ->
  danswer st c = ({| ds := ds st; dt := fst (answer (ds st) rp (dt st) c); dseen := seen_after c (dseen st) |},
                  snd (answer (ds st) rp (dt st) c)).
Proof.
  intro He.
  (* only close touches the set of read streams *)
  assert (E : dsem st c = of_sresp (ds st) (dseen st) (sem (ds st) rp (dt st) c) /\
              ((exists fd, c = Close fd) \/ seen_after c (dseen st) = dseen st)).
  { destruct c; cbn [eff] in He; try discriminate;
      (split; [try reflexivity; cbn [Dyn.dsem]; rewrite He; reflexivity|try (right; reflexivity); left; eexists; reflexivity]). }
  destruct E as [E [[fd ->]|Hs]]; [reflexivity|].
  unfold Dyn.danswer, answer. rewrite E.
  destruct (sem (ds st) rp (dt st) c) as [o|r|fd] eqn:Es; cbn [of_sresp fst snd]; [rewrite reloc_same, Hs; reflexivity..|].
  apply sem_close in Es. subst c. reflexivity.
Qed.

Lemma drun_bind {A B} (p : prog A) (f : A -> prog B) : forall st,
  drun st (bind p f) = match drun st p with
                       | DDone st' a => drun st' (f a)
                       | DPanicked x => DPanicked x
                       | DNoFuel => DNoFuel
                       end.
Proof.
  induction p as [a|c k IH| |]; intro st; cbn [bind Dyn.drun]; try reflexivity.
  destruct (danswer st c) as [st' r]. apply IH.
Qed.

Lemma drun_bindR {A B E} st (p : prog (result A E)) (f : A -> prog (result B E)) :
  drun st (bindR p f) = match drun st p with
                        | DDone st' (Ok a) => drun st' (f a)
                        | DDone st' (Err e) => DDone st' (Err e)
                        | DPanicked x => DPanicked x
                        | DNoFuel => DNoFuel
                        end.
Proof. unfold bindR. rewrite drun_bind. destruct (drun st p) as [st' [a|e]| |]; reflexivity. Qed.

Lemma drun_os {A} st (p : prog (result A N)) :
  drun st (os p) = match drun st p with
                   | DDone st' r => DDone st' (match r with Ok a => Ok a | Err e => Err (OsError e) end)
                   | DPanicked x => DPanicked x
                   | DNoFuel => DNoFuel
                   end.
Proof. unfold os, map_err. rewrite drun_bind. destruct (drun st p); reflexivity. Qed.

Lemma drun_close_any s t seen fd :
  drun {| ds := s; dt := t; dseen := seen |} (close fd) = DDone {| ds := s; dt := tdel t fd; dseen := zrem fd seen |} tt.
Proof. reflexivity. Qed.

(* THE BRIDGE, with the set [seen] of read streams that no call of the program changes (close would) *)
Lemma drun_static_seen {A} seen (p : prog A) : all_calls (fun c => eff c = false /\ seen_after c seen = seen) p -> forall s t,
  drun {| ds := s; dt := t; dseen := seen |} p =
  match run s rp t p with
  | Done t1 a => DDone {| ds := s; dt := t1; dseen := seen |} a
  | Panicked x => DPanicked x
  | NoFuel => DNoFuel
  end.
Proof.
  induction 1 as [a|c k [He Hs] _ IH|x|]; intros s t; cbn [Static.run Dyn.drun]; try reflexivity.
  rewrite (danswer_static _ c He). cbn [ds dt dseen]. rewrite Hs.
  destruct (answer s rp t c) as [t' r]. apply IH.
Qed.

Theorem drun_static_any {A} (p : prog A) : ne p -> forall s t,
  drun {| ds := s; dt := t; dseen := [] |} p =
  match run s rp t p with
  | Done t1 a => DDone {| ds := s; dt := t1; dseen := [] |} a
  | Panicked x => DPanicked x
  | NoFuel => DNoFuel
  end.
Proof.
  intro Hne. apply drun_static_seen. eapply ac_weaken; [|exact (ne_ac p Hne)].
  intros c He. split; [exact He|]. destruct c; reflexivity.
Qed.

Theorem drun_static {A} (p : prog A) : ne p -> forall s t t1 a,
  run s rp t p = Done t1 a ->
  drun {| ds := s; dt := t; dseen := [] |} p = DDone {| ds := s; dt := t1; dseen := [] |} a.
Proof. intros Hne s t t1 a Hrun. rewrite (drun_static_any p Hne), Hrun. reflexivity. Qed.

Section W.
Variable fz : nat.
Hypothesis Hfz : fz <> 0%nat.

(* FrozenFd: error text only, on any state *)
Lemma drun_frozen_any st fd : drun st (frozen fz fd) = DDone st tt.
Proof.
  destruct st as [s t seen]. rewrite (drun_static_seen seen), (run_frozen s rp fz Hfz); [reflexivity|].
  eapply ac_weaken; [|apply frozen_calls]. intros c [ -> |[[n ->]|[n ->]]]; split; reflexivity.
Qed.

Lemma drun_decode {A} st fd (dec : resp -> result A N) r :
  drun st (match dec r with Ok a => Ret (Ok a) | Err e => fail1 fz fd e end) = DDone st (dec r).
Proof. destruct (dec r); [reflexivity|]. unfold fail1. rewrite drun_bind, drun_frozen_any. reflexivity. Qed.

(* the kernel's state after a tree-changing call with effect [E] that returns no descriptor, and what the wrapper returns *)
Definition eff_st (s : fs) (t : fdt) (seen : list Z) (E : eres) : dst :=
  match E with
  | EUnit s' => {| ds := s'; dt := reloc (NPB s) (NPB s') t; dseen := seen |}
  | _ => {| ds := s; dt := t; dseen := seen |}
  end.

Lemma danswer_eff s t seen c E :
  dsem {| ds := s; dt := t; dseen := seen |} c = of_eres s seen E -> not_open E ->
  danswer {| ds := s; dt := t; dseen := seen |} c =
  (eff_st s t seen E, match E with EUnit _ => RUnit | EErr e => RErr e | _ => RErr ENOSYS end).
Proof.
  intros Hs Hno. unfold Dyn.danswer. rewrite Hs.
  destruct E; cbn [of_eres ds dt dseen eff_st]; try contradiction; try rewrite reloc_same; reflexivity.
Qed.

(* [EOpen]: no such call answers with a descriptor (the *_not_open lemmas); [DNoFuel] stands for "does not happen",
   here, in [after_unit] and in the statements of props/C14.v built on them *)
Definition eff_unit (s : fs) (t : fdt) (seen : list Z) (E : eres) : doutcome (result unit N) :=
  match E with
  | EOpen _ _ => DNoFuel
  | _ => DDone (eff_st s t seen E) (match E with EUnit _ => Ok tt | EErr e => Err e | _ => Err ENOSYS end)
  end.

Lemma drun_call_eff s t seen fd c E :
  dsem {| ds := s; dt := t; dseen := seen |} c = of_eres s seen E -> not_open E ->
  drun {| ds := s; dt := t; dseen := seen |} (Call c (fun r => match as_unit r with Ok a => Ret (Ok a) | Err e => fail1 fz fd e end)) =
  eff_unit s t seen E.
Proof.
  intros Hs Hno. cbn [Dyn.drun]. rewrite (danswer_eff s t seen c E Hs Hno), drun_decode.
  destruct E; try contradiction; reflexivity.
Qed.

Lemma drun_simple1_eff s t seen dir d name c E :
  tget t dir = Some d -> has_nul name = false ->
  dsem {| ds := s; dt := t; dseen := seen |} c = of_eres s seen E -> not_open E ->
  drun {| ds := s; dt := t; dseen := seen |} (simple1 fz dir name c as_unit) = eff_unit s t seen E.
Proof.
  intros Hd Hn. unfold simple1, rustix_path. rewrite (tget_valid _ _ _ Hd), Hn. apply drun_call_eff.
Qed.

Lemma drun_w_mkdirat s t seen dir d name mode : tget t dir = Some d -> (d < NPB s)%nat -> has_nul name = false ->
  drun {| ds := s; dt := t; dseen := seen |} (w_mkdirat fz dir name mode) = eff_unit s t seen (create_sem s d name FSModel.KDir).
Proof.
  intros Hd Hlt Hn. apply (drun_simple1_eff s t seen dir d); [exact Hd|exact Hn| |apply create_sem_not_open].
  cbn [Dyn.dsem ds dt dseen]. rewrite (dsem_on1 s t seen dir d _ Hd Hlt). reflexivity.
Qed.

Lemma drun_w_mknodat s t seen dir d name raw dev k : tget t dir = Some d -> (d < NPB s)%nat -> has_nul name = false ->
  kind_of_mode (N.lor (N.land raw S_IFMT) (N.land raw MODE_BITS)) = Some k ->
  drun {| ds := s; dt := t; dseen := seen |} (w_mknodat fz dir name raw dev) = eff_unit s t seen (create_sem s d name k).
Proof.
  intros Hd Hlt Hn Hk. apply (drun_simple1_eff s t seen dir d); [exact Hd|exact Hn| |apply create_sem_not_open].
  cbn [Dyn.dsem ds dt dseen]. rewrite (dsem_on1 s t seen dir d _ Hd Hlt), Hk. reflexivity.
Qed.

Lemma drun_w_unlinkat s t seen dir d name fl : tget t dir = Some d -> (d < NPB s)%nat -> has_nul name = false ->
  drun {| ds := s; dt := t; dseen := seen |} (w_unlinkat fz dir name fl) = eff_unit s t seen (unlink_sem s d name fl).
Proof.
  intros Hd Hlt Hn. apply (drun_simple1_eff s t seen dir d); [exact Hd|exact Hn| |apply unlink_not_open].
  cbn [Dyn.dsem ds dt dseen]. rewrite (dsem_on1 s t seen dir d _ Hd Hlt). reflexivity.
Qed.

Lemma drun_w_symlinkat s t seen target dir d name : tget t dir = Some d -> (d < NPB s)%nat ->
  has_nul target = false -> has_nul name = false ->
  drun {| ds := s; dt := t; dseen := seen |} (w_symlinkat fz target dir name) =
  eff_unit s t seen (if is_nil target then EErr ENOENT else create_sem s d name (FSModel.KLnk target)).
Proof.
  intros Hd Hlt Ht Hn. unfold w_symlinkat. rewrite (tget_valid _ _ _ Hd), Ht, Hn. apply drun_call_eff.
  - cbn [Dyn.dsem ds dt dseen]. rewrite (dsem_on1 s t seen dir d _ Hd Hlt). reflexivity.
  - destruct (is_nil target); [exact I|apply create_sem_not_open].
Qed.

Lemma drun_two_fd s t seen d1 o1 n1 d2 o2 n2 c E :
  tget t d1 = Some o1 -> tget t d2 = Some o2 -> has_nul n1 = false -> has_nul n2 = false ->
  dsem {| ds := s; dt := t; dseen := seen |} c = of_eres s seen E -> not_open E ->
  drun {| ds := s; dt := t; dseen := seen |} (two_fd fz d1 n1 d2 n2 c) = eff_unit s t seen E.
Proof.
  intros H1 H2 Hn1 Hn2 Hs Hno. unfold two_fd. rewrite (tget_valid _ _ _ H1), (tget_valid _ _ _ H2), Hn1, Hn2. cbn [negb orb Dyn.drun].
  rewrite (danswer_eff s t seen c E Hs Hno).
  destruct E; try contradiction; cbn [as_unit eff_unit]; try reflexivity;
    unfold fail2; rewrite drun_bind, drun_frozen_any, drun_bind, drun_frozen_any; reflexivity.
Qed.

Lemma drun_w_linkat s t seen d1 o1 n1 d2 o2 n2 fl :
  tget t d1 = Some o1 -> (o1 < NPB s)%nat -> tget t d2 = Some o2 -> (o2 < NPB s)%nat -> has_nul n1 = false -> has_nul n2 = false ->
  drun {| ds := s; dt := t; dseen := seen |} (w_linkat fz d1 n1 d2 n2 fl) = eff_unit s t seen (link_sem s o1 n1 o2 n2 fl).
Proof.
  intros H1 L1 H2 L2 Hn1 Hn2. apply (drun_two_fd s t seen d1 o1 n1 d2 o2 n2); try assumption; [|apply link_sem_not_open].
  cbn [Dyn.dsem ds dt dseen]. rewrite (dsem_on2 s t seen d1 d2 o1 o2 _ H1 L1 H2 L2). reflexivity.
Qed.

(* renameat2 without flags is issued as renameat: the same effect *)
Lemma drun_w_renameat2 s t seen d1 o1 n1 d2 o2 n2 fl :
  tget t d1 = Some o1 -> (o1 < NPB s)%nat -> tget t d2 = Some o2 -> (o2 < NPB s)%nat -> has_nul n1 = false -> has_nul n2 = false ->
  drun {| ds := s; dt := t; dseen := seen |} (w_renameat2 fz d1 n1 d2 n2 fl) = eff_unit s t seen (rename_sem s o1 n1 o2 n2 fl).
Proof.
  intros H1 L1 H2 L2 Hn1 Hn2. unfold w_renameat2, w_renameat.
  destruct (N.eqb_spec fl 0) as [ -> |_]; apply (drun_two_fd s t seen d1 o1 n1 d2 o2 n2); try assumption; try apply rename_sem_not_open;
    cbn [Dyn.dsem ds dt dseen]; rewrite (dsem_on2 s t seen d1 d2 o1 o2 _ H1 L1 H2 L2); reflexivity.
Qed.

(* the state after an effect call that returns no descriptor, followed by the close of the
   directory descriptor the operation held *)
Definition after_unit (s : fs) (t1 : fdt) (dir : Z) (E : eres) : doutcome (result unit ekind) :=
  match E with
  | EUnit s' => DDone {| ds := s'; dt := tdel (reloc (NPB s) (NPB s') t1) dir; dseen := [] |} (Ok tt)
  | EErr e => DDone {| ds := s; dt := tdel t1 dir; dseen := [] |} (Err (OsError e))
  | EOut => DDone {| ds := s; dt := tdel t1 dir; dseen := [] |} (Err (OsError ENOSYS))
  | EOpen _ _ => DNoFuel
  end.

(* the same with any way [f] of closing what the operation held *)
Definition after_eff (f : fdt -> fdt) (s : fs) (t : fdt) (E : eres) : doutcome (result unit ekind) :=
  match E with
  | EUnit s' => DDone {| ds := s'; dt := f (reloc (NPB s) (NPB s') t); dseen := [] |} (Ok tt)
  | EErr e => DDone {| ds := s; dt := f t; dseen := [] |} (Err (OsError e))
  | EOut => DDone {| ds := s; dt := f t; dseen := [] |} (Err (OsError ENOSYS))
  | EOpen _ _ => DNoFuel
  end.

Lemma drun_after_unit s t1 dir (w : prog (result unit N)) E :
  drun {| ds := s; dt := t1; dseen := [] |} w = eff_unit s t1 [] E ->
  drun {| ds := s; dt := t1; dseen := [] |} (r <- os w ;; close dir ;;; Ret r) = after_unit s t1 dir E.
Proof.
  intro Hw. rewrite drun_bind, drun_os, Hw.
  destruct E; cbn [eff_unit eff_st after_unit]; try reflexivity; rewrite drun_bind, drun_close_any; reflexivity.
Qed.

End W.
End DP.
