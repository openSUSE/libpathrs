(* OpathBal.v -- C11 for the emulated in-root resolver (imp.rs, symlink_stack.rs), Rc
   reference counting included: for ALL kernel answers (that do not hand out a
   descriptor number the operation holds), opath::resolve and opath::resolve_partial
   close only descriptors they opened, and return owning exactly the descriptor of
   the result.  The invariant is a counting one: the reference count the model keeps
   for a descriptor equals the number of roles holding it (root, current, one per
   symlink-stack entry), and the operation owns, beside what it owned when it
   started, exactly the descriptors with a non-zero count. *)
From PV Require Import FdBalance ProgTac FdBalProofs RootBal.
From Coq Require Import Permutation.

Definition cnt (l : list Z) (x : Z) : nat := count_occ Z.eq_dec l x.
Definition one (a b : Z) : nat := if Z.eq_dec a b then 1%nat else 0%nat.
Definition pos (n : nat) : nat := match n with O => 0%nat | S _ => 1%nat end.

Lemma cnt_nil x : cnt [] x = 0%nat.
Proof. reflexivity. Qed.

Lemma cnt_cons y l x : cnt (y :: l) x = (one y x + cnt l x)%nat.
Proof. unfold cnt, one. cbn [count_occ]. destruct (Z.eq_dec y x); reflexivity. Qed.

Lemma cnt_app l1 l2 x : cnt (l1 ++ l2) x = (cnt l1 x + cnt l2 x)%nat.
Proof. unfold cnt. apply count_occ_app. Qed.

Lemma one_refl a : one a a = 1%nat.
Proof. unfold one. destruct (Z.eq_dec a a); [reflexivity|contradiction]. Qed.

Lemma one_neq a b : a <> b -> one a b = 0%nat.
Proof. unfold one. intro H. destruct (Z.eq_dec a b); [contradiction|reflexivity]. Qed.

Lemma one_sym a b : one a b = one b a.
Proof. unfold one. destruct (Z.eq_dec a b), (Z.eq_dec b a); congruence. Qed.

Lemma cnt_perm o o' : (forall x, cnt o x = cnt o' x) <-> Permutation o o'.
Proof. symmetry. apply (Permutation_count_occ Z.eq_dec). Qed.

Lemma cnt_remove_one fd o x : In fd o -> cnt o x = (one fd x + cnt (remove_one fd o) x)%nat.
Proof. intro H. rewrite <- cnt_cons. apply cnt_perm, remove_one_in, H. Qed.

Lemma cnt_pos_in o x : (0 < cnt o x)%nat -> In x o.
Proof. apply (count_occ_In Z.eq_dec). Qed.

Lemma notin_cnt o x : ~ In x o -> cnt o x = 0%nat.
Proof. apply count_occ_not_In. Qed.

(* [pos] of a count that gains one holder: of a descriptor held already, of one not held *)
Lemma pos_held (held : Z -> nat) a x : (0 < held a)%nat -> pos (one a x + held x) = pos (held x).
Proof.
  intro Hp. unfold one. destruct (Z.eq_dec a x) as [<-|_]; [|reflexivity]. destruct (held a); [lia|reflexivity].
Qed.

Lemma pos_new (held : Z -> nat) a x : held a = 0%nat -> pos (one a x + held x) = (one a x + pos (held x))%nat.
Proof. intro Hz. unfold one. destruct (Z.eq_dec a x) as [<-|_]; [rewrite Hz|]; reflexivity. Qed.

Lemma rc_get_set fd n r x : rc_get x (rc_set fd n r) = if Z.eq_dec fd x then n else rc_get x r.
Proof.
  destruct (Z.eq_dec fd x) as [->|Hne]; [apply rc_get_set_same|apply rc_get_set_other; congruence].
Qed.

(* [Inv o0 r H o]: the model's reference counts are the function H (number of holders
   per descriptor; [held] in the lemmas below) and the operation owns o0 plus one of every
   held descriptor *)
Definition Inv (o0 : list Z) (r : refs) (H : Z -> nat) (o : list Z) : Prop :=
  (forall x, rc_get x r = H x) /\ (forall x, cnt o x = (cnt o0 x + pos (H x))%nat).

Lemma Inv_perm o0 r held o o' : Permutation o o' -> Inv o0 r held o -> Inv o0 r held o'.
Proof. intros Hp [H1 H2]. split; [exact H1|]. intro x. rewrite <- (proj2 (cnt_perm _ _) Hp x). apply H2. Qed.

Lemma Inv_ext o0 r held held' o : (forall x, held x = held' x) -> Inv o0 r held o -> Inv o0 r held' o.
Proof. intros E [H1 H2]. split; intro x; rewrite <- E; [apply H1|apply H2]. Qed.

Lemma Inv_fresh o0 r held o n : Inv o0 r held o -> ~ In n o -> held n = 0%nat.
Proof.
  intros [_ H2] Hn. pose proof (H2 n) as Hc. rewrite (notin_cnt _ _ Hn) in Hc.
  destruct (held n); [reflexivity|cbn [pos] in Hc; lia].
Qed.

(* one more holder of fd: its count goes up by one; what the owned set is then compared with
   is left to the caller *)
Lemma Inv_add o0 o0' r held o fd :
  Inv o0 r held o -> (forall x, (cnt o0 x + pos (held x) = cnt o0' x + pos (one fd x + held x))%nat) ->
  Inv o0' (rc_set fd (S (held fd)) r) (fun x => (one fd x + held x)%nat) o.
Proof.
  intros [H1 H2] Ho. split; intro x.
  - rewrite rc_get_set. unfold one. destruct (Z.eq_dec fd x) as [<-|_]; [reflexivity|apply H1].
  - rewrite H2. apply Ho.
Qed.

Lemma Inv_inc o0 r held o fd :
  Inv o0 r held o -> (0 < held fd)%nat -> Inv o0 (rc_inc fd r) (fun x => (one fd x + held x)%nat) o.
Proof.
  intros Hi Hp. unfold rc_inc. rewrite (proj1 Hi fd). apply (Inv_add o0); [exact Hi|].
  intro x. rewrite (pos_held held fd x Hp). reflexivity.
Qed.

(* a descriptor that is open but not (yet) an Rc -- `next` -- is accounted like a lent one *)
Lemma Inv_lend o0 r held o n : Inv o0 r held o -> Inv (n :: o0) r held (n :: o).
Proof. intros [H1 H2]. split; [exact H1|]. intro x. rewrite !cnt_cons, H2. lia. Qed.

(* ... and becomes an Rc of its own when `current = Rc::new(next)` *)
Lemma Inv_adopt o0 r held o n :
  Inv (n :: o0) r held o -> held n = 0%nat -> Inv o0 (rc_set n 1 r) (fun x => (one n x + held x)%nat) o.
Proof.
  intros Hi Hz. replace 1%nat with (S (held n)) by (rewrite Hz; reflexivity). apply (Inv_add (n :: o0)); [exact Hi|].
  intro x. rewrite (pos_new held n x Hz), cnt_cons. lia.
Qed.

(* a new descriptor (one the operation does not hold) becomes an Rc of its own *)
Lemma Inv_new o0 r H o n :
  Inv o0 r H o -> ~ In n o -> Inv o0 (rc_set n 1 r) (fun x => (one n x + H x)%nat) (n :: o).
Proof. intros Hi Hn. apply Inv_adopt; [apply Inv_lend, Hi|exact (Inv_fresh _ _ _ _ _ Hi Hn)]. Qed.

(* when every holder holds a different descriptor, the operation owns exactly those *)
Lemma Inv_owned o0 r held o l :
  Inv o0 r held o -> (forall x, held x = cnt l x) -> NoDup l -> Permutation o (l ++ o0).
Proof.
  intros [_ H2] HH Hnd. apply cnt_perm. intro x. rewrite H2, HH, cnt_app.
  assert (Hle : (cnt l x <= 1)%nat) by apply (proj1 (NoDup_count_occ Z.eq_dec l) Hnd x).
  destruct (cnt l x) as [|[|k]]; cbn [pos]; lia.
Qed.

Lemma close_lent o0 r held o n : Inv (n :: o0) r held o -> bal (fun (_ : unit) o' => Inv o0 r held o') o (close n).
Proof.
  intros [H1 H2].
  assert (Hin : In n o) by (apply cnt_pos_in; rewrite H2, cnt_cons, one_refl; lia).
  apply bal_close; [exact Hin|]. split; [exact H1|]. intro x.
  pose proof (cnt_remove_one n o x Hin) as Hr. rewrite H2, cnt_cons in Hr. lia.
Qed.

(* dropping one reference: the descriptor is closed exactly when it was the last one *)
Lemma rc_drop_bal o0 r o fd held' :
  Inv o0 r (fun x => (one fd x + held' x)%nat) o -> bal (fun r' o' => Inv o0 r' held' o') o (rc_drop fd r).
Proof.
  intros [H1 H2]. cbv beta in H1, H2. unfold rc_drop. rewrite (H1 fd), one_refl. cbn [Nat.add].
  (* either way the count of fd becomes held' fd *)
  assert (Hr : forall x, rc_get x (rc_set fd (held' fd) r) = held' x).
  { intro x. rewrite rc_get_set. destruct (Z.eq_dec fd x) as [<-|Hne]; [reflexivity|].
    rewrite H1, (one_neq _ _ Hne). reflexivity. }
  destruct (held' fd) as [|m] eqn:E.
  - (* the last reference *)
    assert (Hin : In fd o) by (apply cnt_pos_in; rewrite H2, one_refl; cbn [pos Nat.add]; lia).
    eapply bal_bind.
    + apply (bal_close (fun _ o' => forall x, cnt o' x = (cnt o0 x + pos (held' x))%nat)); [exact Hin|].
      intro x. pose proof (cnt_remove_one fd o x Hin) as Hc. rewrite H2, (pos_new held' fd x E) in Hc. lia.
    + intros u o' Ho'. constructor. split; [exact Hr|exact Ho'].
  - constructor. split; [exact Hr|]. intro x. rewrite H2. f_equal. apply pos_held. lia.
Qed.

(* the same for the holder written second *)
Lemma rc_drop_2nd o0 r o fd (a held' : Z -> nat) :
  Inv o0 r (fun x => (a x + (one fd x + held' x))%nat) o ->
  bal (fun r' o' => Inv o0 r' (fun x => (a x + held' x)%nat) o') o (rc_drop fd r).
Proof. intro Hi. apply rc_drop_bal. eapply Inv_ext; [|exact Hi]. intro x. cbv beta. lia. Qed.

Lemma rc_drop_all_bal o0 fds : forall r o held',
  Inv o0 r (fun x => (held' x + cnt fds x)%nat) o -> bal (fun r' o' => Inv o0 r' held' o') o (rc_drop_all fds r).
Proof.
  induction fds as [|fd t IH]; intros r o held' Hi; cbn [rc_drop_all].
  - constructor. eapply Inv_ext; [|exact Hi]. intro x. cbv beta. rewrite cnt_nil. lia.
  - eapply bal_bind; [|intros r' o' Hi'; apply IH, Hi'].
    apply rc_drop_bal. eapply Inv_ext; [|exact Hi]. intro x. cbv beta. rewrite cnt_cons. lia.
Qed.

(* ---- the symlink stack: which directory references it holds ------------------------- *)

Definition dirs (s : option sstack) : list Z := match s with None => [] | Some ss => sdirs ss end.

(* the entries stripped off the stack are the directories released *)
Lemma ss_strip_dirs fuel : forall st rel st' rel',
  ss_strip fuel st rel = (st', rel') -> Permutation (sdirs st ++ rel) (sdirs st' ++ rel').
Proof.
  induction fuel as [|f IH]; intros st rel st' rel'; cbn [ss_strip].
  - intro H; injection H as <- <-. reflexivity.
  - destruct (unsnoc st) as [[init tail]|] eqn:E; [|intro H; injection H as <- <-; reflexivity].
    destruct (is_nil (se_parts tail)); [|intro H; injection H as <- <-; reflexivity].
    intro H. rewrite (unsnoc_app _ _ _ E), sdirs_app, <- app_assoc.
    eapply perm_trans; [apply Permutation_app_head, Permutation_app_comm|exact (IH _ _ _ _ H)].
Qed.

Lemma ss_pop_part_dirs st part st' rel :
  ss_pop_part st part = Ok (st', rel) -> Permutation (sdirs st) (sdirs st' ++ rel).
Proof.
  unfold ss_pop_part. destruct (ss_do_pop st part) as [st1|e] eqn:E.
  - intro H. injection H as H1. rewrite <- (ss_do_pop_dirs _ _ _ E), <- (app_nil_r (sdirs st1)).
    exact (ss_strip_dirs _ _ _ _ _ H1).
  - destruct e; try discriminate. intro H; injection H as <- <-. rewrite app_nil_r. reflexivity.
Qed.

(* who holds a reference: the root, current, and every entry of the symlink stack *)
Definition HS (st : wst) : Z -> nat :=
  fun x => (one (w_cur st) x + (one (w_root st) x + cnt (dirs (w_stack st)) x))%nat.
(* at the end of the walk: the handle of the result (if any) and the stack entries *)
Definition HR (w : wres) : Z -> nat :=
  fun x => (match r_out w with Ok l => one (lookup_fd l) x | Err _ => 0%nat end + cnt (dirs (r_stack w)) x)%nat.

Definition lent (next : option Z) (o0 : list Z) : list Z := match next with Some n => n :: o0 | None => o0 end.

Lemma opt_close_bal o0 r held o next :
  Inv (lent next o0) r held o ->
  bal (fun (_ : unit) o' => Inv o0 r held o') o (match next with Some n => close n | None => Ret tt end).
Proof. destruct next as [n|]; cbn [lent]; intro Hi; [apply close_lent, Hi|constructor; exact Hi]. Qed.

Definition upd (st : wst) (exp : list bytes) (refs' : refs) (stack' : option sstack) : wst :=
  {| w_root := w_root st; w_cur := w_cur st; w_exp := exp; w_refs := refs'; w_stack := stack' |}.

Section Mode.
(* resolve (no symlink stack) or resolve_partial (with one): without a stack there never is one *)
Variable nostk : bool.

Definition WInv (o0 : list Z) (st : wst) (o : list Z) : Prop :=
  Inv o0 (w_refs st) (HS st) o /\ (nostk = true -> w_stack st = None).
Definition Rw (o0 : list Z) (w : wres) (o : list Z) : Prop :=
  Inv o0 (r_refs w) (HR w) o /\ (nostk = true -> r_stack w = None).

Lemma bail_bal o0 st o next e : WInv (lent next o0) st o -> bal (Rw o0) o (bail st next e).
Proof.
  intros [Hi Hm]. unfold bail. eapply bal_bind; [apply opt_close_bal, Hi|]. intros u1 o1 Hi1.
  eapply bal_bind; [apply rc_drop_bal; exact Hi1|]. intros r1 o2 Hi2.
  eapply bal_bind; [apply rc_drop_bal; exact Hi2|]. intros r2 o3 Hi3.
  constructor. split; [exact Hi3|exact Hm].
Qed.

(* the root's reference is dropped, current's lives on in the result *)
Lemma drop_root_bal o0 st o out :
  WInv o0 st o -> (exists l, out = Ok l /\ lookup_fd l = w_cur st) ->
  bal (Rw o0) o (r1 <- rc_drop (w_root st) (w_refs st) ;; Ret (finish st r1 (w_stack st) out)).
Proof.
  intros [Hi Hm] (l & -> & Hl). eapply bal_bind; [apply rc_drop_2nd; exact Hi|]. intros r1 o2 Hi2. constructor. split; [|exact Hm].
  eapply Inv_ext; [|exact Hi2]. intro x. unfold HR. cbn [finish r_out r_stack]. rewrite Hl. reflexivity.
Qed.

Lemma ret_partial_bal o0 st o next rem e : WInv (lent next o0) st o -> bal (Rw o0) o (ret_partial st next rem e).
Proof.
  intros [Hi Hm]. unfold ret_partial. eapply bal_bind; [apply opt_close_bal, Hi|]. intros u1 o1 Hi1.
  apply drop_root_bal; [split; [exact Hi1|exact Hm]|]. eexists. split; reflexivity.
Qed.

(* current = Rc::new(next) *)
Lemma set_cur_new_bal o0 st o n exp :
  WInv (n :: o0) st o -> HS st n = 0%nat ->
  bal (fun st' o' => WInv o0 st' o') o (set_cur st n true exp (w_stack st)).
Proof.
  intros [Hi Hm] Hz. unfold set_cur.
  eapply bal_bind; [apply rc_drop_2nd; exact (Inv_adopt _ _ _ _ _ Hi Hz)|]. intros r2 o2 Hi2. constructor. split; [exact Hi2|exact Hm].
Qed.

(* current = Rc::clone(&root) *)
Lemma set_cur_root_bal o0 st o exp :
  WInv o0 st o -> bal (fun st' o' => WInv o0 st' o') o (set_cur st (w_root st) false exp (w_stack st)).
Proof.
  intros [Hi Hm]. unfold set_cur.
  assert (Hh : (0 < HS st (w_root st))%nat) by (unfold HS; rewrite one_refl; lia).
  eapply bal_bind; [apply rc_drop_2nd; exact (Inv_inc _ _ _ _ _ Hi Hh)|]. intros r2 o2 Hi2. constructor. split; [exact Hi2|exact Hm].
Qed.

(* stack.pop_part: the references of the entries that are dropped are released *)
Lemma stack_pop_part_bal o0 st o part :
  WInv o0 st o ->
  bal (fun r o' => match r with
                   | Err _ => WInv o0 st o'
                   | Ok (stack', refs') => WInv o0 (upd st (w_exp st) refs' stack') o' /\
                                           forall x, (HS (upd st (w_exp st) refs' stack') x <= HS st x)%nat
                   end) o (stack_pop_part st part).
Proof.
  intros [Hi Hm]. unfold stack_pop_part. destruct (w_stack st) as [ss|] eqn:Es.
  - destruct (ss_pop_part ss part) as [[ss' rel]|e] eqn:Ep; [|constructor; split; [exact Hi|rewrite Es; exact Hm]].
    assert (Hd : forall x, cnt (sdirs ss) x = (cnt (sdirs ss') x + cnt rel x)%nat)
      by (intro x; rewrite <- cnt_app; apply cnt_perm, (ss_pop_part_dirs _ _ _ _ Ep)).
    eapply bal_bind.
    { apply (rc_drop_all_bal o0 rel _ _ (fun x => (one (w_cur st) x + (one (w_root st) x + cnt (sdirs ss') x))%nat)).
      eapply Inv_ext; [|exact Hi]. intro x. unfold HS. rewrite Es. cbn [dirs]. rewrite Hd. lia. }
    intros r o' Hi'. constructor. split; [split; [exact Hi'|]|].
    + intro Hn. specialize (Hm Hn). discriminate.
    + intro x. unfold HS, upd. cbn [w_root w_cur w_stack]. rewrite Es. cbn [dirs]. rewrite (Hd x). lia.
  - constructor. split; [split|].
    + unfold upd, HS. cbn [w_root w_cur w_stack w_refs]. unfold HS in Hi. rewrite Es in Hi. exact Hi.
    + intros _. reflexivity.
    + intro x. unfold HS, upd. cbn [w_root w_cur w_stack]. rewrite Es. lia.
Qed.

(* stack.swap_link: one more reference to current *)
Lemma swap_link_WInv o0 st o part remaining target stack' refs' :
  WInv o0 st o ->
  match w_stack st with
  | None => Ok (None, w_refs st)
  | Some ss => match ss_swap_link ss part (w_cur st) remaining target with
               | Ok ss' => Ok (Some ss', rc_inc (w_cur st) (w_refs st))
               | Err e => Err e
               end
  end = (Ok (stack', refs') : result (option sstack * refs) sserr) ->
  WInv o0 (upd st (pop_exp (w_exp st)) refs' stack') o.
Proof.
  intros [Hi Hm] E. destruct (w_stack st) as [ss|] eqn:Ess.
  - destruct (ss_swap_link ss part (w_cur st) remaining target) as [ss'|e] eqn:Esw; [|discriminate].
    injection E as <- <-. split; [|intro Hn; specialize (Hm Hn); discriminate].
    eapply Inv_ext; [|apply (Inv_inc _ _ _ _ (w_cur st) Hi); unfold HS; rewrite one_refl; lia].
    intro x. unfold HS, upd. cbn [w_root w_cur w_stack dirs]. rewrite Ess. cbn [dirs].
    rewrite (ss_swap_link_dirs _ _ _ _ _ _ Esw), cnt_app, cnt_cons, cnt_nil. lia.
  - injection E as <- <-. split; [|intros _; reflexivity].
    unfold upd, HS. cbn [w_root w_cur w_stack w_refs]. unfold HS in Hi. rewrite Ess in Hi. exact Hi.
Qed.

(* the walk, for any check routine that leaves the owned set as it is (declared here: the
   lemmas above use [lia], which would take these in as premises) *)
Variable fz : nat.
Variable ps : N.
Variable chk : Z -> Z -> list bytes -> prog (result unit ekind).
Hypothesis chk_bal : forall cur root exp o, bal (Rsame o) o (chk cur root exp).
Notation fin := (final_check_gen chk).

(* a step that leaves the owned set as it was keeps whatever invariant holds *)
Lemma same_keeps {A} o0 st o (p : prog A) :
  bal (Rsame o) o p -> WInv o0 st o -> bal (fun _ o' => WInv o0 st o') o p.
Proof.
  intros Hb [Hi Hm]. eapply bal_weaken; [exact Hb|]. intros a o' Hp. hnf in Hp.
  split; [eapply Inv_perm; [apply Permutation_sym, Hp|exact Hi]|exact Hm].
Qed.

Lemma os_new_bal o (p : prog (result Z N)) : bal (Rnew o) o p -> bal (Rnew o) o (os p).
Proof. apply bal_map_err; intros ? ? H; exact H. Qed.

Lemma may_follow_link_bal dir link o : bal (Rsame o) o (may_follow_link fz ps dir link).
Proof.
  unfold may_follow_link. apply bal_neutral_call; [exact I|]. intro ru. unfold os.
  apply bal_seqR_same; [apply bal_map_err_same, w_fstatat_bal|reflexivity|]. intro dm.
  apply bal_seqR_same; [apply bal_map_err_same, w_fstatat_bal|reflexivity|]. intro lm.
  apply bal_if; auto with owned.
Qed.

Lemma final_check_bal o0 st o : WInv o0 st o -> bal (Rw o0) o (fin st).
Proof.
  intro Hi. unfold final_check_gen.
  eapply bal_bind; [apply same_keeps; [apply chk_bal|exact Hi]|]. intros r o1 Hi1. cbn beta in Hi1.
  destruct r as [_u|e]; [|apply bail_bal, Hi1].
  apply drop_root_bal; [exact Hi1|]. eexists. split; reflexivity.
Qed.

Lemma WInv_lend o0 st o n : WInv o0 st o -> WInv (n :: o0) st (n :: o).
Proof. intros [Hi Hm]. split; [apply Inv_lend, Hi|exact Hm]. Qed.

Lemma close_lent_w o0 st o n : WInv (n :: o0) st o -> bal (fun (_ : unit) o' => WInv o0 st o') o (close n).
Proof.
  intros [Hi Hm]. eapply bal_weaken; [apply close_lent, Hi|]. intros a o' Hi'. split; [exact Hi'|exact Hm].
Qed.

(* a step that keeps the owned set, with `next` not yet an Rc: on an error everything is dropped *)
Lemma keep_or_bail {A} o0 st next o (p : prog (result A ekind)) (K : A -> prog wres) :
  WInv (next :: o0) st o -> bal (Rsame o) o p ->
  (forall x o', WInv (next :: o0) st o' -> bal (Rw o0) o' (K x)) ->
  bal (Rw o0) o (r <- p ;; match r with Ok x => K x | Err e => bail st (Some next) e end).
Proof.
  intros Hi Hp HK. eapply bal_bind; [apply same_keeps; [exact Hp|exact Hi]|].
  intros [x|e] o' Hi'; [apply HK, Hi'|apply bail_bal, Hi'].
Qed.

Lemma walk_open_bal o0 nosym nofollow follow inner remaining rest :
  (forall go, follow = Some go -> forall st cs o, WInv o0 st o -> bal (Rw o0) o (go st cs)) ->
  (forall st o, WInv o0 st o -> bal (Rw o0) o (inner st rest)) ->
  forall st part o, WInv o0 st o ->
    bal (Rw o0) o (walk_open fz ps chk fin nosym nofollow follow inner remaining rest st part).
Proof.
  intros Hgo Hinner st part o Hi. unfold walk_open.
  apply bal_if; [apply bail_bal, Hi|].
  eapply bal_bind; [apply os_new_bal, w_openat_new_bal|]. intros r o1 Hr.
  destruct r as [next|e].
  2:{ apply ret_partial_bal. destruct Hi as [Hi Hm].
      split; [eapply Inv_perm; [apply Permutation_sym, Hr|exact Hi]|exact Hm]. }
  destruct Hr as [-> Hfresh].
  (* next is open but no Rc yet, and no holder has that number *)
  pose proof (Inv_fresh _ _ _ _ _ (proj1 Hi) Hfresh) as Hz.
  (* the check after a '..' step *)
  apply keep_or_bail; [apply WInv_lend, Hi| |].
  { apply bal_if; [apply chk_bal|auto with owned]. }
  intros _u o2 Hi2.
  apply keep_or_bail; [exact Hi2|apply bal_map_err_same, w_fstatat_bal|]. intros meta o3 Hi3.
  apply bal_if.
  { (* not a symlink: walk into it *)
    eapply bal_bind; [apply stack_pop_part_bal, Hi3|].
    intros r o4 Hr4. destruct r as [[stack' refs']|e]; [|apply bail_bal, Hr4].
    destruct Hr4 as [Hi4 Hle].
    eapply bal_bind.
    { apply set_cur_new_bal; [exact Hi4|]. apply Nat.le_0_r. rewrite <- Hz. apply Hle. }
    intros st' o5 Hi5. apply Hinner, Hi5. }
  apply bal_if.
  { eapply bal_bind; [apply set_cur_new_bal; [exact Hi3|exact Hz]|].
    intros st' o4 Hi4. apply final_check_bal, Hi4. }
  destruct nosym; [apply ret_partial_bal, Hi3|].
  apply keep_or_bail; [exact Hi3| |].
  { apply bal_if; [auto with owned|apply may_follow_link_bal]. }
  intros _u2 o4 Hi4.
  destruct follow as [go|]; [|apply ret_partial_bal, Hi4].
  apply keep_or_bail; [exact Hi4|apply bal_map_err_same, w_readlinkat_bal|]. intros target o5 Hi5.
  apply keep_or_bail; [exact Hi5| |].
  { apply bal_if; [apply is_magiclink_filesystem_bal|auto with owned]. }
  intros [|] o6 Hi6; [apply bail_bal, Hi6|].
  (* the link is followed: swap_link keeps one more reference to current *)
  destruct (match w_stack st with None => _ | Some _ => _ end) as [[stack' refs']|e] eqn:Esw;
    [|apply bail_bal, Hi6].
  pose proof (swap_link_WInv _ _ _ _ _ _ _ _ Hi6 Esw) as Hst1. cbn zeta.
  eapply bal_bind.
  { instantiate (1 := fun st2 o' => WInv (next :: o0) st2 o').
    apply bal_if; [apply (set_cur_root_bal _ _ _ [] Hst1)|constructor; exact Hst1]. }
  intros st2 o7 Hi7. cbn beta in Hi7.
  eapply bal_bind; [apply close_lent_w, Hi7|]. intros u o8 Hi8.
  eapply Hgo; [reflexivity|exact Hi8].
Qed.

Lemma walk_body_bal o0 nosym nofollow follow :
  (forall go, follow = Some go -> forall st cs o, WInv o0 st o -> bal (Rw o0) o (go st cs)) ->
  forall cs st o, WInv o0 st o -> bal (Rw o0) o (walk_body fz ps chk fin nosym nofollow follow st cs).
Proof.
  intros Hgo cs. induction cs as [|part0 rest IH]; intros st o Hi; cbn [walk_body].
  - apply final_check_bal, Hi.
  - cbn zeta.
    assert (Hopen : forall st' part o', WInv o0 st' o' ->
              bal (Rw o0) o' (walk_open fz ps chk fin nosym nofollow follow (walk_body fz ps chk fin nosym nofollow follow)
                                (join_slash (part0 :: rest)) rest st' part))
      by (intros st' part o'; apply walk_open_bal; [exact Hgo|exact IH]).
    apply bal_if; [apply Hopen, Hi|].
    apply bal_if; [apply Hopen, Hi|].
    apply bal_if; [|apply Hopen, Hi].
    destruct (w_exp st) eqn:Eexp; [|apply Hopen, Hi].
    eapply bal_bind; [apply stack_pop_part_bal, Hi|].
    intros r o1 Hr1. destruct r as [[stack' refs']|e]; [|apply bail_bal, Hr1].
    destruct Hr1 as [Hi1 _]. rewrite Eexp in Hi1.
    eapply bal_bind; [apply (set_cur_root_bal o0 (upd st [] refs' stack')), Hi1|].
    intros st' o2 Hi2. apply IH, Hi2.
Qed.

Lemma walk_gen_bal o0 budget nosym nofollow : forall st cs o,
  WInv o0 st o -> bal (Rw o0) o (walk_gen fz ps chk fin budget nosym nofollow st cs).
Proof.
  apply (walk_gen_budget_ind fz ps chk fin nosym nofollow
           (fun go => forall st cs o, WInv o0 st o -> bal (Rw o0) o (go st cs))).
  intros follow Hgo st cs o. apply walk_body_bal, Hgo.
Qed.

End Mode.

Section Resolve.
Variable fz : nat.
Variable cfg : bool.
Variable pfuel : nat.
Variable gh : phandle.
Variable ps : N.

Lemma check_current_bal cur root exp o : bal (Rsame o) o (check_current fz cfg pfuel gh cur root exp).
Proof.
  unfold check_current.
  apply bal_seqR_same; [apply as_unsafe_path_bal|reflexivity|]. intro rp.
  apply bal_seqR_same; [apply as_unsafe_path_bal|reflexivity|]. intro cp.
  apply bal_if; [auto with owned|].
  apply bal_seqR_same; [apply as_unsafe_path_bal|reflexivity|]. intro np.
  apply bal_if; auto with owned.
Qed.

Definition Rdo (nostk : bool) (o : list Z) : result wres ekind -> list Z -> Prop :=
  fun r o' => match r with Ok w => Rw nostk o w o' | Err _ => Permutation o' o end.

Lemma do_resolve_bal nostk root path nosym nofollow stack o :
  dirs stack = [] -> (nostk = true -> stack = None) ->
  bal (Rdo nostk o) o (do_resolve fz cfg pfuel gh ps root path nosym nofollow stack).
Proof.
  intros Hd Hm. unfold do_resolve, bindR.
  eapply bal_bind; [apply os_new_bal, dup_new_bal|]. intros r o1 Hr.
  destruct r as [rd|e]; [|constructor; exact Hr]. destruct Hr as [-> Hfresh].
  (* root and current are two references to the duplicate *)
  assert (Hi : WInv nostk o {| w_root := rd; w_cur := rd; w_exp := []; w_refs := [(rd, 2%nat)]; w_stack := stack |} (rd :: o)).
  { split; [|exact Hm]. split; intro x; unfold HS; cbn [w_root w_cur w_stack w_refs]; rewrite Hd, cnt_nil.
    - cbn [rc_get]. unfold one. destruct (Z.eqb_spec rd x) as [->|Hne].
      + destruct (Z.eq_dec x x); [reflexivity|contradiction].
      + destruct (Z.eq_dec rd x); [contradiction|reflexivity].
    - rewrite cnt_cons. unfold one. destruct (Z.eq_dec rd x); cbn [pos Nat.add]; lia. }
  apply bal_if.
  - eapply bal_bind; [apply ret_partial_bal, Hi|]. intros w o2 Hw. constructor. exact Hw.
  - eapply bal_bind; [apply (walk_gen_bal nostk fz ps _ (check_current_bal) o), Hi|]. intros w o2 Hw. constructor. exact Hw.
Qed.

(* at the end the only holder left is the result's handle, whose count is then one *)
Lemma unwrap_rc_bal o (l : lookup) r' o' :
  Inv o r' (fun x => one (lookup_fd l) x) o' ->
  bal (fun l0 o2 => l0 = l /\ Permutation o2 (lookup_fd l :: o)) o' (unwrap_rc l r').
Proof.
  intro Hi. unfold unwrap_rc. fold (lookup_fd l). rewrite (proj1 Hi), one_refl. constructor. split; [reflexivity|].
  apply (Inv_owned _ _ _ _ [lookup_fd l] Hi); [intro x; rewrite cnt_cons, cnt_nil; lia|]. constructor; [intros []|constructor].
Qed.

Lemma unwrap_ret_bal o (l : lookup) r' o' :
  Inv o r' (fun x => one (lookup_fd l) x) o' -> bal (@Rlk ekind o) o' (l0 <- unwrap_rc l r' ;; Ret (Ok l0)).
Proof.
  intro Hi. eapply bal_bind; [apply unwrap_rc_bal, Hi|]. intros l0 o2 [-> Hp]. constructor. hnf. destruct l; exact Hp.
Qed.

Lemma none_held o r' o' : Inv o r' (fun _ => 0%nat) o' -> Permutation o' o.
Proof. intro Hi. apply (Inv_owned _ _ _ _ [] Hi); [reflexivity|constructor]. Qed.

(* opath::resolve *)
Theorem opath_resolve_root_bal root path nosym nofollow o :
  bal (Rfd o) o (opath_resolve_root fz cfg pfuel gh ps root path nosym nofollow).
Proof.
  unfold opath_resolve_root, bindR.
  eapply bal_bind; [apply (do_resolve_bal true root path nosym nofollow None o); reflexivity|].
  intros r o1 Hr. destruct r as [w|e]; [|constructor; exact Hr].
  destruct Hr as [Hi Hm]. specialize (Hm eq_refl).
  assert (HH : forall x, HR w x = match r_out w with Ok l => one (lookup_fd l) x | Err _ => 0%nat end)
    by (intro x; unfold HR; rewrite Hm, cnt_nil; lia).
  apply (Inv_ext _ _ _ _ _ HH) in Hi.
  destruct (r_out w) as [l|e]; [|constructor; exact (none_held _ _ _ Hi)].
  eapply bal_bind; [apply unwrap_rc_bal, Hi|]. intros l0 o2 [-> Hp].
  destruct l as [fd|fd rem e]; [constructor; exact Hp|apply close_ret_p; exact Hp].
Qed.

(* opath::resolve_partial, with the symlink stack dropped (or its top entry handed out) at the end *)
Theorem opath_resolve_partial_bal root path nosym nofollow o :
  bal (Rlk o) o (opath_resolve_partial fz cfg pfuel gh ps root path nosym nofollow).
Proof.
  unfold opath_resolve_partial, bindR.
  eapply bal_bind; [apply (do_resolve_bal false root path nosym nofollow (Some []) o); [reflexivity|discriminate]|].
  intros r o1 Hr. destruct r as [w|e]; [|constructor; exact Hr].
  destruct Hr as [Hi _].
  cbv zeta. remember (match r_stack w with Some s => s | None => [] end) as ss eqn:Ess.
  assert (Hss : dirs (r_stack w) = map se_dir ss) by (subst ss; destruct (r_stack w); reflexivity).
  clear Ess.
  assert (Hi' : Inv o (r_refs w) (fun x => (match r_out w with Ok l => one (lookup_fd l) x | Err _ => 0%nat end
                                              + cnt (map se_dir ss) x)%nat) o1)
    by (eapply Inv_ext; [|exact Hi]; intro x; unfold HR; rewrite Hss; reflexivity).
  clear Hi Hss. revert Hi'. destruct (r_out w) as [[fd|fd rem e]|e]; cbn [lookup_fd]; intro Hi.
  - eapply bal_bind; [apply rc_drop_all_bal; exact Hi|]. intros r' o2 Hi2. apply unwrap_ret_bal, Hi2.
  - destruct ss as [|top rest_ss].
    + apply unwrap_ret_bal. eapply Inv_ext; [|exact Hi]. intro x. cbv beta. cbn [map lookup_fd]. rewrite cnt_nil. lia.
    + eapply bal_bind; [apply rc_drop_bal; exact Hi|]. intros r1 o2 Hi2.
      eapply bal_bind; [|intros r2 o3 Hi3; apply unwrap_ret_bal, Hi3].
      apply rc_drop_all_bal. eapply Inv_ext; [|exact Hi2]. intro x. cbn [map]. rewrite cnt_cons. reflexivity.
  - eapply bal_bind; [apply rc_drop_all_bal; exact Hi|]. intros r' o2 Hi2. constructor. exact (none_held _ _ _ Hi2).
Qed.

Theorem emu_res_ok rs : rs_kernel rs = false -> res_ok fz cfg pfuel gh ps rs.
Proof. intros H root path nf o. unfold r_resolve. rewrite H. apply opath_resolve_root_bal. Qed.

Theorem emu_resp_ok rs : rs_kernel rs = false -> resp_ok fz cfg pfuel gh ps rs.
Proof. intros H root path nf o. unfold r_resolve_partial. rewrite H. apply opath_resolve_partial_bal. Qed.

(* either backend meets the lookup contract *)
Theorem any_res_ok rs : res_ok fz cfg pfuel gh ps rs /\ resp_ok fz cfg pfuel gh ps rs.
Proof.
  destruct (rs_kernel rs) eqn:H; [split; [apply kernel_res_ok|apply kernel_resp_ok]|split; [apply emu_res_ok|apply emu_resp_ok]]; exact H.
Qed.

End Resolve.
