(* StaticReopen.v -- C09: Handle::reopen on the static kernel returns a new descriptor
   open on the SAME object, and leaves every other descriptor as it was, whichever
   resolver the procfs handle uses. *)
From PV Require Import Static PathProofs StaticProofs CheckProofs ProcfsProps StaticProcfs BitsProofs DisciplineProofs.

(* the flag word the follow-open is made with never has O_NOFOLLOW (reopen strips it) *)
Lemma reopen_flags_follow flags :
  has (N.lor (N.lor (without flags REOPEN_REMOVED) OPENAT_FORCED) O_LARGEFILE) O_NOFOLLOW = false.
Proof.
  change O_NOFOLLOW with (2 ^ 17). rewrite !has_lor_bit, has_bit. unfold without. rewrite N.ldiff_spec.
  destruct (N.testbit flags 17); reflexivity.
Qed.

Section ROG.
Variable s : fs.
Variable rp : bytes.
Variable fz : nat.
Hypothesis Hfz : fz <> 0%nat.
Variable gh : phandle.
Hypothesis Hmnt : ph_mnt gh = Some PROC_MNT.
Variable o2 : bool.
Hypothesis Ho2 : ph_openat2 gh = o2.
Hypothesis Hroutes : routes s rp fz o2.

Notation run := (run s rp).

(* Handle::reopen(flags): the readlink probe of fd/N, the fd directory opened, the magic-link
   verified to be on the same mount and opened through; the new descriptor is above every other *)
Theorem run_reopen_any pf t fd o exp flags :
  tget t (ph_fd gh) = Some (PB s) ->
  tget t fd = Some o -> (o < PB s)%nat -> FSModel.link_body s o = None ->
  find_path s o = Some exp -> N.leb READLINK_BUF (N.of_nat (length (render rp exp))) = false ->
  (intersects (without flags REOPEN_REMOVED) OPEN_FOLLOW_REFUSED || has_nz (without flags REOPEN_REMOVED) OPEN_FOLLOW_REFUSED_CONTAINS) = false ->
  (has (N.lor (N.lor (without flags REOPEN_REMOVED) OPENAT_FORCED) O_LARGEFILE) O_DIRECTORY && negb (obj_is_dir s o)) = false ->
  exists nfd, run t (reopen fz o2 (S pf) gh fd flags) = Done ((nfd, o) :: t) (Ok nfd) /\ Above t nfd.
Proof.
  intros HP Hfd Holt Hnl Hpath Hlen Hacc Hdir.
  pose proof (tget_pos _ _ _ Hfd) as Hpos.
  unfold reopen. rewrite (run_bindR s rp), (run_fstatat s rp fz Hfz t fd o Hfd Holt). cbn [st_mode].
  rewrite symlink_mode_body, Hnl, (proc_subpath_nonneg fd Hpos).
  unfold popen_follow. change (follow_refused (without flags REOPEN_REMOVED) = false) in Hacc. rewrite Hacc, andb_false_r. cbv iota.
  rewrite (strip_name_end (b "fd/") _ (dec_no_slash _) (dec_nonempty _)). cbv beta iota. rewrite Hacc, andb_false_r. cbv iota.
  (* the readlink that tells whether the target is a link at all *)
  rewrite (run_bind s rp), (run_preadlink_magic s rp fz Hfz gh Hmnt o2 Ho2 Hroutes pf t fd o exp HP Hfd Hpath Hlen).
  cbv iota. change (b "fd/" ++ dec (Z.to_N fd)) with (b "fd" ++ SLASH :: dec (Z.to_N fd)).
  rewrite (path_split_name (b "fd") _ ltac:(discriminate) (dec_no_slash _) (dec_nonempty _)).
  (* the parent: the fd directory *)
  destruct (run_popen s rp fz Hfz gh Hmnt o2 Ho2 Hroutes pf t (b "fd") OPEN_FOLLOW_PARENT_FLAGS (P_FDDIR s) HP (Nat.le_add_r _ 5))
    as (pfd & Hpo & Hpfd).
  { intros d Hd. apply (proj1 (proj2 Hroutes)), above_same, Hd. }
  set (T1 := (pfd, P_FDDIR s) :: t) in *.
  pose proof (above_same t pfd (P_FDDIR s) Hpfd) as Hp. fold T1 in Hp.
  assert (Hn : tget T1 (Z.of_N (Z.to_N fd)) = Some o) by (rewrite Z2N.id by exact Hpos; apply above_old; assumption).
  exists (fresh T1). split; [|apply (above_cons t pfd (P_FDDIR s) _ (above_fresh T1))].
  rewrite (run_bindR s rp), Hpo, (run_bind s rp), (run_fetch_mnt s rp fz Hfz T1 pfd _ Hp), (proj2 (Nat.leb_le (PB s) (P_FDDIR s)) (Nat.le_add_r (PB s) 5)).
  (* the magic-link is on the same mount as its directory *)
  rewrite (run_bind s rp), (run_verify_same_mnt s rp fz T1 pfd _ PROC_MNT
                              (run_fetch_mnt_sem s rp fz Hfz T1 pfd _ _ _ Hp (dec_no_nul _) (sem_statx_fdentry s rp T1 pfd _ o _ _ Hp Hn))).
  (* the open that follows the magic-link *)
  rewrite (run_bind s rp), (run_os s rp), (run_w_openat_follow s rp fz Hfz T1 pfd _ _ _ 0 Hp (dec_no_nul _)). unfold answer.
  rewrite (sem_openat_fdentry s rp T1 pfd _ o _ _ Hp (reopen_flags_follow flags) Hn), Hdir. cbv beta iota zeta. rewrite as_fd_fresh.
  rewrite (run_bind s rp), run_close. unfold T1. rewrite (above_close2 t pfd _ _ _ Hpfd (above_fresh _)). reflexivity.
Qed.

End ROG.

(* the instance for a handle that resolves with openat2, with what [Above] gives spelled out;
   despite its name it follows from run_reopen_any *)
Section RO.
Variable s : fs.
Variable rp : bytes.
Variable fz : nat.
Hypothesis Hfz : fz <> 0%nat.
Variable gh : phandle.
Hypothesis Hmnt : ph_mnt gh = Some PROC_MNT.
Hypothesis Ho2 : ph_openat2 gh = true.

Notation run := (run s rp).

Theorem run_reopen_strong pf t fd o exp flags :
  tget t (ph_fd gh) = Some (PB s) ->
  tget t fd = Some o -> (o < PB s)%nat -> FSModel.link_body s o = None ->
  find_path s o = Some exp -> N.leb READLINK_BUF (N.of_nat (length (render rp exp))) = false ->
  (* flags the library accepts, and that fit the object (O_DIRECTORY only on a directory) *)
  (intersects (without flags REOPEN_REMOVED) OPEN_FOLLOW_REFUSED || has_nz (without flags REOPEN_REMOVED) OPEN_FOLLOW_REFUSED_CONTAINS) = false ->
  (has (N.lor (N.lor (without flags REOPEN_REMOVED) OPENAT_FORCED) O_LARGEFILE) O_DIRECTORY && negb (obj_is_dir s o)) = false ->
  exists nfd, run t (reopen fz true (S pf) gh fd flags) = Done ((nfd, o) :: t) (Ok nfd) /\ tfind t nfd = None /\ (0 <= nfd)%Z.
Proof.
  intros HP Hfd Holt Hnl Hpath Hlen Hacc Hdir.
  destruct (run_reopen_any s rp fz Hfz gh Hmnt true Ho2 (routes_openat2 s rp fz Hfz) pf t fd o exp flags HP Hfd Holt Hnl Hpath Hlen Hacc Hdir)
    as (nfd & H & Hab).
  exists nfd. split; [exact H|]. split; [exact (above_none t nfd Hab)|exact (above_pos t nfd Hab)].
Qed.

End RO.
