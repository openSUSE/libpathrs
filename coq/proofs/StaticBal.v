(* StaticBal.v -- what the balance judgement (C11, for all answers) means on the static
   kernel of theories/Static.v, whose answers are particular ones: a program that is
   balanced leaves every descriptor that was open before it started bound to what it was
   bound to, and the descriptors open afterwards are the old ones plus the ones the
   judgement says it returns owning. *)
From PV Require Import Static StaticProofs FdBalance FdBalProofs.

Section SB.
Variable s : fs.
Variable rp : bytes.

(* the three kinds of answer of the static kernel, and what each says about the call:
   only an opening call gets a new descriptor, no other answer carries a descriptor
   number, and only close closes *)
Definition sem_class (c : call) (a : sresp) : Prop :=
  match a with
  | SNew _ => forall r, opens c r = match as_fd r with Ok n => [n] | Err _ => [] end
  | SRet r => opens c r = []
  | SClose fd => c = Close fd
  end.

Lemma sem_cases t c : sem_class c (sem s rp t c).
Proof.
  destruct c; try (hnf; reflexivity); unfold sem, ord_open;
    repeat match goal with |- context [match ?x with _ => _ end] => destruct x end; hnf; reflexivity.
Qed.

Lemma sem_close t c fd : sem s rp t c = SClose fd -> c = Close fd.
Proof. intro E. pose proof (sem_cases t c) as H. rewrite E in H. exact H. Qed.

Definition indom (t : fdt) (fd : Z) : Prop := tfind t fd <> None.

Lemma indom_fresh t : ~ indom t (fresh t).
Proof. unfold indom. rewrite tfind_fresh. intro H. exact (H eq_refl). Qed.

Lemma indom_cons t f ob fd : indom ((f, ob) :: t) fd <-> fd = f \/ indom t fd.
Proof.
  unfold indom. cbn [tfind]. destruct (Z.eqb_spec f fd) as [->|Hne].
  - split; [left; reflexivity|discriminate].
  - split; [right; assumption|intros [->|H]; [contradiction|exact H]].
Qed.

Lemma indom_del t fd x : indom (tdel t fd) x <-> x <> fd /\ indom t x.
Proof.
  unfold indom. rewrite tfind_del. destruct (Z.eqb_spec fd x) as [->|Hne].
  - split; [contradiction|intros [H _]; contradiction].
  - split; [intro H; split; [congruence|exact H]|intros [_ H]; exact H].
Qed.

Lemma remove_one_nodup x l : NoDup l ->
  NoDup (remove_one x l) /\ forall y, In y (remove_one x l) <-> In y l /\ y <> x.
Proof.
  induction l as [|y t IH]; intro Hnd; cbn [remove_one].
  - split; [constructor|]. intro z. split; [intros []|intros [[] _]].
  - apply NoDup_cons_iff in Hnd as [Hny Hnt]. destruct (Z.eqb_spec x y) as [->|Hne].
    + split; [exact Hnt|]. intro z. split.
      * intro Hz. split; [right; exact Hz|]. intros ->. contradiction.
      * intros [[->|Hz] Hzy]; [contradiction|exact Hz].
    + destruct (IH Hnt) as [H1 H2]. split.
      * constructor; [|exact H1]. intro Hin. apply H2 in Hin. apply Hny, Hin.
      * intro z. cbn [In]. rewrite H2. split.
        -- intros [->|[Hz Hzx]]; [split; [left; reflexivity|congruence]|split; [right; exact Hz|exact Hzx]].
        -- intros [[->|Hz] Hzx]; [left; reflexivity|right; split; assumption].
Qed.

(* one call of the static kernel, read on the owned set [o] *)
Lemma answer_cases t c o :
  let (t1, r) := answer s rp t c in
  (exists ob, t1 = (fresh t, ob) :: t /\ opens c r = [fresh t] /\ step_owned o c r = fresh t :: o) \/
  (t1 = t /\ opens c r = [] /\ step_owned o c r = o) \/
  (exists fd, c = Close fd /\ t1 = tdel t fd).
Proof.
  unfold answer. pose proof (sem_cases t c) as H. destruct (sem s rp t c) as [ob|r|fd] eqn:E; hnf in H.
  - left. exists ob.
    assert (Ho : opens c (RFd (fresh t)) = [fresh t]) by (rewrite H, as_fd_fresh; reflexivity).
    split; [reflexivity|]. split; [exact Ho|].
    rewrite step_owned_nonclose, Ho; [reflexivity|]. intros fd ->. discriminate.
  - right. left. split; [reflexivity|]. split; [exact H|].
    rewrite step_owned_nonclose, H; [reflexivity|]. intros fd ->. discriminate.
  - right. right. exists fd. split; [exact H|reflexivity].
Qed.

(* [keeps t0 o0 t o]: the operation started on table t0 owning o0 and is now on table t
   owning o: what it owns is open, and the descriptors that were open at the start and
   not its own are what they were, and nothing else is open *)
Definition keeps (t0 : fdt) (o0 : list Z) (t : fdt) (o : list Z) : Prop :=
  NoDup o /\ (forall n, In n o -> indom t n) /\
  (forall fd, indom t0 fd -> ~ In fd o0 -> tfind t fd = tfind t0 fd /\ ~ In fd o) /\
  (forall fd, indom t fd -> (indom t0 fd /\ ~ In fd o0) \/ In fd o).

Lemma keeps_step t0 o0 t o c :
  keeps t0 o0 t o -> (forall fd, c = Close fd -> mem fd o = true) ->
  let (t1, r) := answer s rp t c in fresh_for o c r /\ keeps t0 o0 t1 (step_owned o c r).
Proof.
  intros (Hnd & Hdom & Hkeep & Honly) Hc. pose proof (answer_cases t c o) as Ha.
  destruct (answer s rp t c) as [t1 r].
  (* a descriptor that was open at the start and is not the operation's own is still open *)
  assert (Hin : forall fd, indom t0 fd -> ~ In fd o0 -> indom t fd).
  { intros fd H0 Hn. unfold indom. destruct (Hkeep fd H0 Hn) as [-> _]. exact H0. }
  destruct Ha as [(ob & -> & Ho & ->)|[(-> & Ho & ->)|(fd & -> & ->)]].
  - (* a new descriptor: a number that is not in the table *)
    assert (Hfo : ~ In (fresh t) o) by (intro H; exact (indom_fresh t (Hdom _ H))).
    split; [intros n Hn; rewrite Ho in Hn; destruct Hn as [<-|[]]; exact Hfo|].
    split; [constructor; assumption|]. split; [|split].
    + intros n Hn. apply indom_cons. destruct Hn as [<-|Hn]; [left; reflexivity|right; apply Hdom, Hn].
    + intros fd H0 Hn. destruct (Hkeep fd H0 Hn) as [E Hno].
      assert (Hne : fresh t <> fd) by (intros <-; exact (indom_fresh t (Hin _ H0 Hn))).
      cbn [tfind In]. destruct (Z.eqb_spec (fresh t) fd); [contradiction|]. split; [exact E|]. intros [H|H]; contradiction.
    + intros fd Hfd. apply indom_cons in Hfd. destruct Hfd as [->|Hfd]; [right; left; reflexivity|].
      destruct (Honly fd Hfd) as [H|H]; [left; exact H|right; right; exact H].
  - (* no change *)
    split; [intros n Hn; rewrite Ho in Hn; destruct Hn|]. exact (conj Hnd (conj Hdom (conj Hkeep Honly))).
  - (* close: of a descriptor the operation owns *)
    pose proof (Hc fd eq_refl) as Hm. apply mem_in in Hm. cbn [step_owned].
    destruct (remove_one_nodup fd o Hnd) as [Hnd1 Hrm].
    split; [intros n []|]. split; [exact Hnd1|]. split; [|split].
    + intros n Hn. apply Hrm in Hn. apply indom_del. split; [apply Hn|apply Hdom, Hn].
    + intros x H0 Hn. destruct (Hkeep x H0 Hn) as [E Hno].
      rewrite tfind_del. destruct (Z.eqb_spec fd x) as [->|_]; [contradiction|]. split; [exact E|].
      intro H. apply Hrm in H. apply Hno, H.
    + intros x Hx. apply indom_del in Hx. destruct Hx as [Hne Hx].
      destruct (Honly x Hx) as [H|H]; [left; exact H|right; apply Hrm; split; assumption].
Qed.

Lemma bal_run_keeps {A} (R : A -> list Z -> Prop) (p : prog A) t0 o0 t' a : forall o t,
  bal R o p -> run s rp t p = Done t' a -> keeps t0 o0 t o -> exists o', R a o' /\ keeps t0 o0 t' o'.
Proof.
  intros o t Hb. revert t. induction Hb as [a0 o Ha | c k o Hc Hk IH | st o | o]; intros t Hrun HK;
    cbn [run] in Hrun; try discriminate.
  - inversion Hrun; subst. exists o. split; assumption.
  - pose proof (keeps_step _ _ _ _ c HK Hc) as Hs. destruct (answer s rp t c) as [t1 r].
    destruct Hs as [Hfr HK1]. exact (IH r Hfr t1 Hrun HK1).
Qed.

Theorem bal_run {A} (R : A -> list Z -> Prop) (p : prog A) : forall o t t' a,
  bal R o p -> run s rp t p = Done t' a ->
  NoDup o -> (forall n, In n o -> indom t n) ->
  exists o', R a o' /\ NoDup o' /\ (forall n, In n o' -> indom t' n) /\
    (* descriptors that were open and not the operation's own are what they were *)
    (forall fd, indom t fd -> ~ In fd o -> tfind t' fd = tfind t fd) /\
    (* and nothing else is open afterwards than those and what the operation owns *)
    (forall fd, indom t' fd -> (indom t fd /\ ~ In fd o) \/ In fd o').
Proof.
  intros o t t' a Hb Hrun Hnd Hdom.
  destruct (bal_run_keeps R p t o t' a o t Hb Hrun) as (o' & HR & Hnd' & Hdom' & Hkeep & Honly).
  { split; [exact Hnd|]. split; [exact Hdom|]. split.
    - intros fd _ Hn. split; [reflexivity|exact Hn].
    - intros fd Hfd. destruct (in_dec Z.eq_dec fd o) as [Hi|Hni]; [right; exact Hi|left; split; assumption]. }
  exists o'. split; [exact HR|]. split; [exact Hnd'|]. split; [exact Hdom'|]. split; [|exact Honly].
  intros fd Hfd Hn. apply Hkeep; assumption.
Qed.

End SB.
