(* MountProofs.v -- what C06 and C08 are stated over: the fuel step of the masked-handle retry,
   the procfs lookup with its two verification sites as parameters ([popen_gen]) and one step of
   the emulated procfs walk with its check as a parameter ([pstep_gen]). *)
From PV Require Import Discipline ProgTac FaultProofs ProcfsProps.

Lemma okp_peq {A} P S (Q : A -> Prop) (p q : prog A) : peq p q -> okp P S Q q -> okp P S Q p.
Proof.
  intro H. induction H as [a | c k k' Hk IH | s | ]; intro Hq; inversion Hq; subst; constructor; auto.
Qed.

Section Mount.
Variable fz : nat.
Variable cfg : bool.

(* two lookups that differ in fuel agree as soon as their retries do; and only a masked handle
   retries, on a handle that is not masked itself (RETRY_ONLY_UNMASKED of gen/Consts.v, F-D) *)
Lemma popen_step f1 f2 h base sub fl :
  (ph_subset h = true ->
   forall h' b s o, ph_subset h' = false -> peq (popen fz cfg f1 h' b s o) (popen fz cfg f2 h' b s o)) ->
  peq (popen fz cfg (S f1) h base sub fl) (popen fz cfg (S f2) h base sub fl).
Proof.
  intro Hin. cbn [popen]. unfold bindR.
  apply peq_bind; [apply peq_refl|]. intros [basedir|e]; [|apply peq_refl].
  apply peq_bind; [apply peq_refl|]. intro r.
  apply peq_bind; [apply peq_refl|]. intro r2.
  apply peq_bind; [|intro; apply peq_refl].
  destruct r2 as [fd|e]; [apply peq_refl|].
  destruct (ph_subset h) eqn:Hs; [|apply peq_refl]. cbn [andb].
  destruct (ekind_is_enoent e); [|apply peq_refl].
  apply peq_bind; [apply peq_refl|]. intros [h'|e']; [|apply peq_refl].
  change RETRY_ONLY_UNMASKED with true. cbn [andb].
  destruct (ph_subset h') eqn:Hs'; [apply peq_refl|].
  apply peq_bind; [|intro; apply peq_refl].
  apply (Hin eq_refl). exact Hs'.
Qed.

Lemma popen_unmasked_no_retry f h base sub fl :
  ph_subset h = false -> peq (popen fz cfg (S f) h base sub fl) (popen fz cfg 1 h base sub fl).
Proof. intro Hs. apply popen_step. intro Hm. rewrite Hs in Hm. discriminate Hm. Qed.

Definition vfy := phandle -> Z -> prog (result unit ekind).
Definition vfy_fails (v : vfy) : Prop := forall h fd, rets is_Err (v h fd).

(* ProcfsHandle::open with its two verification sites as parameters *)
Fixpoint popen_gen (vb vf : vfy) (fuel : nat) (h : phandle) (base : pbase) (subpath : bytes) (oflags : N)
  : prog (result Z ekind) :=
  match fuel with
  | O => OutOfFuel
  | S f =>
      let oflags := N.lor oflags PROCFS_OPEN_FORCED in
      basedir <-? (p <- into_path fz (ph_fd h) base ;;
                   fd <-? presolve fz cfg (ph_openat2 h) (ph_fd h) p OPEN_BASE_FLAGS 0 ;;
                   r <- vb h fd ;;
                   match r with Err e => close fd ;;; Ret (Err e) | Ok _ => Ret (Ok fd) end) ;;
      r <- presolve fz cfg (ph_openat2 h) basedir subpath oflags 0 ;;
      r <- match r with
           | Ok fd => v <- vf h fd ;; match v with Ok _ => Ret (Ok fd) | Err e => close fd ;;; Ret (Err e) end
           | Err e => Ret (Err e)
           end ;;
      r <- match r with
           | Ok fd => Ret (Ok fd)
           | Err e =>
               if ph_subset h && ekind_is_enoent e then
                 nh <- procfs_new_unmasked fz cfg ;;
                 match nh with
                 | Err _ => Ret (Err e)
                 | Ok h' =>
                     if RETRY_ONLY_UNMASKED && ph_subset h' then close (ph_fd h') ;;; Ret (Err e) else
                     r' <- popen_gen vb vf f h' base subpath oflags ;;
                     close (ph_fd h') ;;; Ret r'
                 end
               else Ret (Err e)
           end ;;
      close basedir ;;; Ret r
  end.

(* one step of the emulated procfs walk (the open of the component and the mount-id check of
   ProcfsM.pwalk_body, transcribed) with the check as a parameter.  No lemma ties this
   transcription to pwalk_body. *)
Definition pstep_gen (vs : option N -> Z -> prog (result unit ekind)) (root_mnt : option N) (cur : Z) (part : bytes)
  : prog (result Z ekind) :=
  r <- os (w_openat fz cur part PROCFS_WALK_FLAGS 0) ;;
  match r with
  | Err e => close cur ;;; Ret (Err e)
  | Ok next =>
      r <- vs root_mnt next ;;
      match r with
      | Err e => close next ;;; close cur ;;; Ret (Err e)
      | Ok _ => Ret (Ok next)
      end
  end.

End Mount.
