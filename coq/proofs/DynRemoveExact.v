(* DynRemoveExact.v -- C13, the exact statement about the pure function rm_all (DynRemove.v):
   whenever the entry of a directory disappears, that directory is empty from then on ([step_ok]: true of
   every unlink / rmdir -- rmdir needs an empty directory --, transitive, hence true of rm_all); after a
   success every directory below the named one is therefore empty ([rm_all_empties]), everything beneath it
   is gone, and the entries afterwards are exactly those before minus the named entry and what is beneath
   it ([rm_all_exact]).  Premise: names are unique within a directory ([uniq]). *)
From PV Require Import Dyn PathProofs DynRemove.

(* stated entry-wise, so that it survives the disappearance of entries *)
Definition uniq (s : fs) : Prop :=
  forall d n1 n2 c1 c2, In (d, n1, c1) (ents s) -> In (d, n2, c2) (ents s) -> beq n1 n2 = true -> c1 = c2.

Lemma uniq_shrinks s s' : shrinks s s' -> uniq s -> uniq s'.
Proof. intros (_ & _ & Hi) H d n1 n2 c1 c2 H1 H2 Hb. exact (H d n1 n2 c1 c2 (Hi _ H1) (Hi _ H2) Hb). Qed.

Lemma has_child_shrinks s s' o : shrinks s s' -> has_child s' o = true -> has_child s o = true.
Proof.
  intros (_ & _ & Hi) H. unfold has_child in *. apply existsb_exists in H. destruct H as (e & He & Hd).
  apply existsb_exists. exists e. split; [apply Hi, He|exact Hd].
Qed.

(* a directory's entry disappears only when the directory is empty -- and it stays empty *)
Definition step_ok (s s' : fs) : Prop :=
  shrinks s s' /\
  forall o n o', In (o, n, o') (ents s) -> is_dir s o' = true -> ~ In (o, n, o') (ents s') -> has_child s' o' = false.

Lemma step_ok_refl s : step_ok s s.
Proof. split; [apply shrinks_refl|]. intros o n o' Hin _ Hn. contradiction. Qed.

Lemma step_ok_trans s1 s2 s3 : step_ok s1 s2 -> step_ok s2 s3 -> step_ok s1 s3.
Proof.
  intros [Hs12 H12] [Hs23 H23]. split; [eapply shrinks_trans; eassumption|].
  intros o n o' Hin Hd Hn.
  destruct (in_dec ent_dec (o, n, o') (ents s2)) as [Hin2|Hn2].
  - apply (H23 o n o' Hin2); [rewrite (is_dir_shrinks _ _ o' Hs12); exact Hd|exact Hn].
  - pose proof (H12 o n o' Hin Hd Hn2) as Hc. destruct (has_child s3 o') eqn:E; [|reflexivity].
    rewrite (has_child_shrinks _ _ _ Hs23 E) in Hc. discriminate.
Qed.

Lemma lookup_in_uniq s d name n' c : uniq s -> In (d, n', c) (ents s) -> beq name n' = true -> lookup s d name = Some c.
Proof.
  intros Hu Hin Hb. destruct (lookup s d name) as [c0|] eqn:E; [|exfalso; exact (find_ent_none _ _ _ _ _ E Hin Hb)].
  destruct (FSProofs.find_ent_spec _ _ _ _ E) as (n0 & Hin0 & Hb0). f_equal. apply (Hu d n0 n' c0 c Hin0 Hin).
  apply beq_true_iff in Hb0. apply beq_true_iff in Hb. subst. apply PathProofs.beq_refl.
Qed.

Lemma unlink_sem_step s d n fl s' : uniq s -> unlink_sem s d n fl = EUnit s' -> step_ok s s'.
Proof.
  intros Hu H. destruct (unlink_sem_unit _ _ _ _ _ H) as (-> & c & El & Hc). split; [apply del_ent_shrinks|].
  intros o nm o' Hin Hd Hnin. destruct (del_ent_in s d n _ Hin Hnin) as [E1 E2]. cbn [ent_dir ent_name fst snd] in E1, E2. subst o.
  rewrite (lookup_in_uniq s d n nm o' Hu Hin) in El by (rewrite beq_sym; exact E2). inversion El; subst c.
  destruct (N.eqb fl 0); [congruence|]. destruct Hc as [_ Hc].
  destruct (has_child (del_ent s d n) o') eqn:E; [|reflexivity].
  rewrite (has_child_shrinks _ _ _ (del_ent_shrinks s d n) E) in Hc. discriminate.
Qed.

(* [step_ok] from a tree with unique names is a preorder -- entries only disappear, so names stay unique --
   that holds across every successful unlinkat *)
Theorem rm_all_step : forall fuel s d name s' r, uniq s -> rm_all fuel s d name = Some (s', r) -> step_ok s s'.
Proof.
  intros fuel s d name s' r Hu H. revert Hu.
  refine (rm_all_R (fun a b => uniq a -> step_ok a b) _ _ _ _ _ _ _ _ _ H).
  - intros a _. apply step_ok_refl.
  - intros a b c Hab Hbc Ha. pose proof (Hab Ha) as S1. exact (step_ok_trans _ _ _ S1 (Hbc (uniq_shrinks _ _ (proj1 S1) Ha))).
  - intros a d0 n fl b E Ha. exact (unlink_sem_step _ _ _ _ _ Ha E).
Qed.

(* the directories below [c]: [c] and what is reached from it through entries that are directories *)
Inductive desc (s : fs) (c : nat) : nat -> Prop :=
| desc_refl : desc s c c
| desc_step o n o' : desc s c o -> In (o, n, o') (ents s) -> is_dir s o' = true -> desc s c o'.

(* C13: when remove_all reports success, every directory below the named one is empty afterwards, hence
   every entry beneath the named one is gone *)
Theorem rm_all_empties fuel s d name s' n' c :
  uniq s -> Dyn.plain name = true -> rm_all fuel s d name = Some (s', Ok tt) ->
  In (d, n', c) (ents s) -> beq name n' = true -> is_dir s c = true ->
  forall o, desc s c o -> has_child s' o = false.
Proof.
  intros Hu Hp H Hin Hb Hdir.
  destruct (rm_all_step fuel s d name s' _ Hu H) as [Hsh Hstep].
  pose proof (rm_all_gone fuel s d name s' Hp H) as Hgone.
  induction 1 as [|o n o' _ IH Hin' Hd'].
  - apply (Hstep d n' c Hin Hdir). intro Hin2. unfold FSModel.lookup in Hgone. exact (find_ent_none _ _ _ _ _ Hgone Hin2 Hb).
  - apply (Hstep o n o' Hin' Hd'). intro Hin2.
    unfold has_child in IH. rewrite <- Bool.not_true_iff_false in IH. apply IH. apply existsb_exists.
    exists (o, n, o'). split; [exact Hin2|]. cbn [ent_dir fst]. apply Nat.eqb_refl.
Qed.

Lemma beneath_desc s c e : beneath s c e -> exists o, desc s c o /\ ent_dir e = o /\ In e (ents s).
Proof.
  induction 1 as [c e Hin Hd|c n c' e Hin Hdir _ IH].
  - exists c. split; [constructor|split; [exact Hd|exact Hin]].
  - destruct IH as (o & Hdesc & Ho & Hine). exists o. split; [|split; assumption].
    clear Ho Hine. induction Hdesc as [|o1 n1 o2 _ IH1 Hin1 Hd1].
    + eapply desc_step; [constructor|exact Hin|exact Hdir].
    + eapply desc_step; [exact IH1|exact Hin1|exact Hd1].
Qed.

Theorem rm_all_removes_everything_beneath fuel s d name s' n' c :
  uniq s -> Dyn.plain name = true -> rm_all fuel s d name = Some (s', Ok tt) ->
  In (d, n', c) (ents s) -> beq name n' = true -> is_dir s c = true ->
  forall e, beneath s c e -> ~ In e (ents s').
Proof.
  intros Hu Hp H Hin Hb Hdir e Hbe Hine.
  destruct (beneath_desc _ _ _ Hbe) as (o & Hdesc & Ho & _).
  pose proof (rm_all_empties fuel s d name s' n' c Hu Hp H Hin Hb Hdir o Hdesc) as Hc.
  unfold has_child in Hc. rewrite <- Bool.not_true_iff_false in Hc. apply Hc. apply existsb_exists.
  exists e. split; [exact Hine|]. rewrite Ho. apply Nat.eqb_refl.
Qed.

(* C13, the exact statement: after a successful remove_all the entries are exactly those that were there and are
   neither the named entry nor beneath the directory under that name; objects and parents untouched (rm_all_shrinks) *)
Theorem rm_all_exact fuel s d name s' :
  uniq s -> Dyn.plain name = true -> rm_all fuel s d name = Some (s', Ok tt) ->
  forall e, In e (ents s') <-> (In e (ents s) /\ ~ under s d name e).
Proof.
  intros Hu Hp H e. pose proof (rm_all_shrinks _ _ _ _ _ _ H) as (_ & _ & Hincl).
  pose proof (rm_all_gone fuel s d name s' Hp H) as Hgone.
  split.
  - intro Hin'. split; [apply Hincl, Hin'|]. intros [[Hd Hn]|(n2 & c2 & Hin2 & Hb2 & Hdir2 & Hbe)].
    + destruct e as [[ed en] ec]. cbn [ent_dir ent_name fst snd] in Hd, Hn. subst ed.
      unfold FSModel.lookup in Hgone. rewrite beq_sym in Hn. exact (find_ent_none _ _ _ _ _ Hgone Hin' Hn).
    + exact (rm_all_removes_everything_beneath fuel s d name s' n2 c2 Hu Hp H Hin2 Hb2 Hdir2 e Hbe Hin').
  - intros [Hin Hnu]. destruct (in_dec ent_dec e (ents s')) as [Hin'|Hnin]; [exact Hin'|].
    exfalso. apply Hnu. exact (rm_all_only fuel s s d name s' _ (shrinks_refl s) H e Hin Hnin).
Qed.
