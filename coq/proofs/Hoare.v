(* Hoare.v -- a small program logic over [prog]: judgements that quantify over
   every answer the kernel can give.  [hist] is the list of (call, answer)
   pairs issued so far, most recent first. *)
From PV Require Import Prog.

Definition hist := list (call * resp).

(* [spec P Q h p]: started after history h, every call p issues satisfies P
   (which may look at the history), and when p returns a in history h',
   Q a h' holds.  Panic / OutOfFuel end the execution (other judgements rule
   them out). *)
Inductive spec {A} (P : hist -> call -> Prop) (Q : A -> hist -> Prop) : hist -> prog A -> Prop :=
| sp_ret a h : Q a h -> spec P Q h (Ret a)
| sp_call c k h : P h c -> (forall r, spec P Q ((c, r) :: h) (k r)) -> spec P Q h (Call c k)
| sp_panic s h : spec P Q h (Panic s)
| sp_fuel h : spec P Q h OutOfFuel.

Lemma spec_bind {A B} P (Q1 : A -> hist -> Prop) (Q2 : B -> hist -> Prop) h (p : prog A) (f : A -> prog B) :
  spec P Q1 h p ->
  (forall a h', Q1 a h' -> spec P Q2 h' (f a)) ->
  spec P Q2 h (bind p f).
Proof.
  intros Hp Hf. induction Hp as [a h Hq | c k h Hc Hk IH | s h | h]; cbn.
  - apply Hf. exact Hq.
  - constructor; [exact Hc|]. intro r. apply IH.
  - constructor.
  - constructor.
Qed.

Lemma spec_weaken {A} P (Q Q' : A -> hist -> Prop) h (p : prog A) :
  spec P Q h p -> (forall a h', Q a h' -> Q' a h') -> spec P Q' h p.
Proof.
  intros Hp HQ. induction Hp; constructor; auto.
Qed.

Lemma spec_weaken_call {A} (P P' : hist -> call -> Prop) (Q : A -> hist -> Prop) h (p : prog A) :
  spec P Q h p -> (forall h c, P h c -> P' h c) -> spec P' Q h p.
Proof.
  intros Hp HP. induction Hp; constructor; auto.
Qed.

Definition TrueQ {A} : A -> hist -> Prop := fun _ _ => True.

Lemma spec_bind_T {A B} P h (p : prog A) (f : A -> prog B) (Q2 : B -> hist -> Prop) :
  spec P TrueQ h p -> (forall a h', spec P Q2 h' (f a)) -> spec P Q2 h (bind p f).
Proof. intros Hp Hf. eapply spec_bind; [exact Hp|]. intros a h' _. apply Hf. Qed.

(* spec implies the history-free all_calls when P ignores the history *)
Lemma spec_all_calls {A} (P : call -> Prop) (Q : A -> hist -> Prop) h (p : prog A) :
  spec (fun _ c => P c) Q h p -> all_calls P p.
Proof. intro Hp. induction Hp; constructor; auto. Qed.

Lemma no_panic_bind {A B} (p : prog A) (f : A -> prog B) :
  no_panic p -> (forall a, no_panic (f a)) -> no_panic (bind p f).
Proof.
  intros Hp Hf. induction Hp as [a | c k Hk IH | ]; cbn.
  - apply Hf.
  - constructor. intro r. apply IH.
  - constructor.
Qed.

Lemma spec_map_err {A E F} P (Q : result A F -> hist -> Prop) h (g : E -> F) (p : prog (result A E)) :
  spec P (fun r h' => Q (match r with Ok a => Ok a | Err e => Err (g e) end) h') h p ->
  spec P Q h (map_err g p).
Proof.
  intro Hp. unfold map_err. eapply spec_bind; [exact Hp|].
  intros a h' Hq. constructor. exact Hq.
Qed.

Lemma spec_bindR {A B E} P (Q1 : result A E -> hist -> Prop) (Q2 : result B E -> hist -> Prop)
      h (p : prog (result A E)) (f : A -> prog (result B E)) :
  spec P Q1 h p ->
  (forall a h', Q1 (Ok a) h' -> spec P Q2 h' (f a)) ->
  (forall e h', Q1 (Err e) h' -> Q2 (Err e) h') ->
  spec P Q2 h (bindR p f).
Proof.
  intros Hp Hf He. unfold bindR. eapply spec_bind; [exact Hp|].
  intros [a|e] h' Hq; [apply Hf; exact Hq | constructor; apply He; exact Hq].
Qed.
