(* SymlinkProofs.v -- C15: which positions of a link count as trailing for the kernel
   ([k_trailing]) and the two constants of the source the protected_symlinks theorems of
   props/C15.v rest on. *)
From PV Require Import Discipline.

(* the source applies the rule to links in a trailing position only: gen/Consts.v EMU_PS_ONLY_TRAILING (F-G) *)
Lemma only_trailing : EMU_PS_ONLY_TRAILING = true.
Proof. reflexivity. Qed.

(* which positions are trailing: the kernel treats a link as trailing when nothing but
   trailing slashes follows it (lookup_last with LOOKUP_DIRECTORY); T0: the source does too *)
Definition k_trailing (rest : list bytes) : bool := forallb (@is_nil N) rest.

Lemma slashes_trailing : EMU_PS_SLASHES_TRAILING = true.
Proof. reflexivity. Qed.

