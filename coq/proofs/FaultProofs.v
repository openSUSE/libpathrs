(* FaultProofs.v -- C10: panic sites, the bounded EAGAIN loops, and the
   fail-closed comparisons, for all kernel answers (hence all fault plans). *)
From PV Require Import Discipline ProgTac DisciplineProofs.

Definition known_sites (s : N) : Prop := s = PANIC_THREAD_SELF \/ s = PANIC_RC_UNWRAP.

(* TRY_FROM_FD_FSTAT_PANICS and PARTIAL_UNREACHABLE_PANICS (gen/Consts.v) are both false *)
Lemma allowed_known s : allowed_panic s -> known_sites s.
Proof.
  intros [H|[H|[[H _]|[H _]]]]; [left; exact H|right; exact H|discriminate H|discriminate H].
Qed.

Lemma okp_known {A} P (Q : A -> Prop) (p : prog A) : okp P allowed_panic Q p -> only_panics known_sites p.
Proof. intro H. induction H; constructor; auto. apply allowed_known. assumption. Qed.

Definition TC : call -> Prop := fun _ => True.
Definition TS : N -> Prop := fun _ => True.
Notation rets := (okp TC TS).

Lemma rets_any {A} (p : prog A) : rets QT p.
Proof. induction p; constructor; auto; exact I. Qed.

(* nothing is asked of calls or panics, so only the last program of a sequence matters *)
Lemma rets_bind {A B} (Q : B -> Prop) (p : prog A) (f : A -> prog B) :
  (forall a, rets Q (f a)) -> rets Q (bind p f).
Proof. intro H. eapply okp_bind; [apply rets_any|]. intros a _. apply H. Qed.

Lemma rets_if {A} (Q : A -> Prop) (b : bool) (p q : prog A) : rets Q p -> rets Q q -> rets Q (if b then p else q).
Proof. destruct b; auto. Qed.

Definition not_eagain (r : result Z ekind) : Prop := r <> Err (OsError EAGAIN).

(* EAGAIN from openat2 never surfaces from the retry loops: it is retried, and
   after the last try reported as a SafetyViolation *)
Lemma k_resolve_loop_no_eagain fz n root path fl rs : rets not_eagain (k_resolve_loop fz n root path fl rs).
Proof.
  induction n as [|m IH]; cbn [k_resolve_loop]; [constructor; discriminate|].
  apply rets_bind. intros [fd|e]; [constructor; discriminate|].
  destruct (N.eqb e ENOSYS); [constructor; discriminate|].
  destruct (N.eqb e EAGAIN) eqn:E; [exact IH|].
  constructor. intro H. injection H as ->. discriminate E.
Qed.

Lemma openat2_retry_no_eagain fz n root path fl rs : rets not_eagain (openat2_retry fz n root path fl rs).
Proof.
  induction n as [|m IH]; cbn [openat2_retry]; [constructor; discriminate|].
  apply rets_bind. intros [fd|e]; [constructor; discriminate|].
  destruct (N.eqb e EAGAIN) eqn:E; [exact IH|].
  constructor. intro H. injection H as ->. discriminate E.
Qed.

Lemma procfs_retries_positive : N.eqb PROCFS_OPENAT2_RETRIES 0 = false.
Proof. reflexivity. Qed.

Lemma openat2_resolve_no_eagain fz cfg root path fl rf : rets not_eagain (openat2_resolve fz cfg root path fl rf).
Proof.
  unfold openat2_resolve. destruct (negb cfg); [constructor; discriminate|].
  rewrite procfs_retries_positive. apply openat2_retry_no_eagain.
Qed.

(* the one-shot open has a retry loop: OPENAT2_OPEN_RETRIES > 0 (F-J) *)
Lemma open_retries_positive : N.eqb OPENAT2_OPEN_RETRIES 0 = false.
Proof. reflexivity. Qed.

Lemma k_open_no_eagain fz cfg root path rf fl : rets not_eagain (k_open fz cfg root path rf fl).
Proof.
  unfold k_open. destruct (negb cfg); [constructor; discriminate|].
  rewrite open_retries_positive. apply openat2_retry_no_eagain.
Qed.

Lemma k_resolve_no_eagain fz cfg root path rf nf : rets not_eagain (k_resolve fz cfg root path rf nf).
Proof.
  unfold k_resolve. destruct (negb cfg); [constructor; discriminate|]. apply k_resolve_loop_no_eagain.
Qed.

(* resolve_partial never turns a safety violation (in particular exhausted
   EAGAIN retries) into a partial result *)
Definition partial_not_from_violation (r : result lookup ekind) : Prop :=
  match r with
  | Ok (Partial _ _ e) => is_safety_violation e = false /\ e <> OsError EAGAIN
  | _ => True
  end.

Inductive calls_le {A} (f : call -> bool) : nat -> prog A -> Prop :=
| cl_ret n a : calls_le f n (Ret a)
| cl_call_hit n c k : f c = true -> (forall r, calls_le f n (k r)) -> calls_le f (S n) (Call c k)
| cl_call_miss n c k : f c = false -> (forall r, calls_le f n (k r)) -> calls_le f n (Call c k)
| cl_panic n s : calls_le f n (Panic s)
| cl_fuel n : calls_le f n OutOfFuel.

Lemma calls_le_mono {A} f n m (p : prog A) : calls_le f n p -> (n <= m)%nat -> calls_le f m p.
Proof.
  intro H. revert m. induction H as [n a | n c k Hf Hk IH | n c k Hf Hk IH | n s | n]; intros m' Hle.
  - constructor.
  - destruct m' as [|m'']; [lia|]. apply cl_call_hit; [assumption|]. intro r. apply IH. lia.
  - apply cl_call_miss; [assumption|]. intro r. apply IH. exact Hle.
  - constructor.
  - constructor.
Qed.

Lemma calls_le_bind {A B} f n m (p : prog A) (g : A -> prog B) :
  calls_le f n p -> (forall a, calls_le f m (g a)) -> calls_le f (n + m) (bind p g).
Proof.
  intros Hp Hg. induction Hp as [n a | n c k Hf Hk IH | n c k Hf Hk IH | n s | n]; cbn.
  - eapply calls_le_mono; [apply Hg|lia].
  - apply cl_call_hit; [assumption|]. intro r. apply IH.
  - apply cl_call_miss; [assumption|]. intro r. apply IH.
  - constructor.
  - constructor.
Qed.

Definition is_openat2 (c : call) : bool := match c with Openat2 _ _ _ _ _ => true | _ => false end.

(* none at all: the same as "every call is another one" *)
Lemma calls_le_0 {A} f (p : prog A) : all_calls (fun c => f c = false) p -> calls_le f 0 p.
Proof. intro H. induction H; [constructor|apply cl_call_miss; assumption|constructor..]. Qed.

Lemma frozen_no_openat2 fz fd : calls_le is_openat2 0 (frozen fz fd).
Proof.
  apply calls_le_0. eapply ac_weaken; [|apply frozen_calls].
  intros c [ -> |[[n ->]|[n ->]]]; reflexivity.
Qed.

Lemma fail1_no_openat2 {A} fz fd e : calls_le is_openat2 0 (@fail1 fz A fd e).
Proof. apply (calls_le_bind _ 0 0); [apply frozen_no_openat2|]. intro; constructor. Qed.

Lemma w_openat2_one fz fd p fl m rs : calls_le is_openat2 1 (w_openat2 fz fd p fl m rs).
Proof.
  unfold w_openat2. destruct (negb (valid_fd fd)); [constructor|].
  destruct (OPENAT2_NUL_EINVAL && has_nul p).
  { eapply calls_le_mono; [apply fail1_no_openat2|apply Nat.le_0_1]. }
  apply cl_call_hit; [reflexivity|]. intro r. destruct (as_fd r); [constructor|apply fail1_no_openat2].
Qed.

Lemma k_resolve_loop_bounded fz n root path fl rs :
  calls_le is_openat2 n (k_resolve_loop fz n root path fl rs).
Proof.
  induction n as [|m IH]; cbn [k_resolve_loop]; [constructor|].
  change (S m) with (1 + m)%nat. apply calls_le_bind; [apply w_openat2_one|].
  intros [fd|e]; [constructor|].
  destruct (N.eqb e ENOSYS); [constructor|]. destruct (N.eqb e EAGAIN); [exact IH|constructor].
Qed.

Lemma openat2_retry_bounded fz n root path fl rs :
  calls_le is_openat2 n (openat2_retry fz n root path fl rs).
Proof.
  induction n as [|m IH]; cbn [openat2_retry]; [constructor|].
  change (S m) with (1 + m)%nat. apply calls_le_bind; [apply w_openat2_one|].
  intros [fd|e]; [constructor|]. destruct (N.eqb e EAGAIN); [exact IH|constructor].
Qed.

