(* DynResolve.v -- C12: "returns a handle for the in-root resolution of the path" in the RESULTING tree.
   1. [kwalk_q_app]: the kernel walk over  cs1 ++ cs2  is the walk over cs1 (links followed) and then
      the walk over cs2 from where it ended, with what is left of the link budget.
   2. [kwalk_q_extends]: a walk that succeeds on a tree succeeds with the same result on every
      extension of it by new directories.
   3. [kwalk_q_dirs]: below a directory, components that are "" or "." or name real directories
      are walked without the link budget.
   Together: if the walk of the ancestor [a] ends on [o] in the old tree and the creation loop ends on
   [c] along [parts] in the new tree, the walk of  a ++ components-of-the-rest  ends on [c] in the new
   tree ([resolution_after_mkdir_all]). *)
From PV Require Import Dyn PathProofs StaticProofs DynMkdir DynMkdirAll.

Local Notation WOk := FSModel.WOk.

Lemma kwalk_q_app s nosym : forall b cs1 cur cs2 o,
  FSModel.kwalk_q s false nosym b cur cs1 = WOk o ->
  exists b', (b' <= b)%nat /\ FSModel.kwalk_q s false nosym b cur (cs1 ++ cs2) = FSModel.kwalk_q s false nosym b' o cs2.
Proof.
  intros b cs1 cur. revert b cur cs1.
  apply (FSProofs.kwalk_q_ind (fun b cur cs1 => forall cs2 o, FSModel.kwalk_q s false nosym b cur cs1 = WOk o ->
           exists b', (b' <= b)%nat /\ FSModel.kwalk_q s false nosym b cur (cs1 ++ cs2) = FSModel.kwalk_q s false nosym b' o cs2)).
  { intros b cur cs2 o H. rewrite FSProofs.kwalk_q_nil in H. injection H as <-. exists b. split; [apply le_n|reflexivity]. }
  intros b cur c rest IH IHlink cs2 o H. rewrite FSProofs.kwalk_q_cons in H. cbn [app]. rewrite FSProofs.kwalk_q_cons.
  destruct (negb (FSModel.is_dir s cur)); [discriminate|].
  destruct (is_nil c || is_dot c); [exact (IH _ _ _ H)|].
  destruct (is_dotdot c); [exact (IH _ _ _ H)|].
  destruct (FSModel.lookup s cur c) as [d|]; [|discriminate].
  destruct (FSModel.link_body s d) as [body|]; [|exact (IH _ _ _ H)].
  rewrite andb_false_r in *. destruct nosym; [discriminate|]. destruct b as [|b']; [discriminate|].
  (* the link is followed: one unit of the budget is gone *)
  rewrite app_assoc. destruct (IHlink b' _ _ eq_refl cs2 _ H) as (b'' & Hle & E).
  exists b''. split; [exact (Nat.le_trans _ _ _ Hle (Nat.le_succ_diag_r b'))|exact E].
Qed.

Lemma extends_parents s s' : extends s s' -> closed2 s -> forall o, (o < length (kinds s))%nat ->
  FSModel.parent_of s' o = FSModel.parent_of s o.
Proof.
  induction 1 as [s|s s' d n Hext IH Hd Hl]; intros Hc o Ho; [reflexivity|].
  pose proof (extends_closed2 _ _ Hext Hc) as [_ Hlen'].
  destruct (extends_frame _ _ Hext) as (_ & _ & Hle & _).
  unfold FSModel.parent_of, FSModel.add_obj. cbn [FSModel.parents]. rewrite app_nth1 by lia. apply IH; assumption.
Qed.

Lemma kwalk_q_extends s s' nosym : extends s s' -> closed2 s -> forall b cs cur o,
  (cur < length (kinds s))%nat -> FSModel.kwalk_q s false nosym b cur cs = WOk o ->
  FSModel.kwalk_q s' false nosym b cur cs = WOk o.
Proof.
  intros Hext Hc. destruct (extends_frame _ _ Hext) as (Hk & Hlk & _ & _). pose proof (extends_parents _ _ Hext Hc) as Hpar.
  pose proof (closed2_root _ Hc) as H0. destruct (proj1 Hc) as (_ & _ & Hparc). unfold PB in Hparc.
  assert (Hdir : forall x, (x < length (kinds s))%nat -> is_dir s' x = is_dir s x)
    by (intros x Hx; unfold FSModel.is_dir; rewrite (Hk x Hx); reflexivity).
  assert (Hlb : forall x, (x < length (kinds s))%nat -> FSModel.link_body s' x = FSModel.link_body s x)
    by (intros x Hx; unfold FSModel.link_body; rewrite (Hk x Hx); reflexivity).
  intros b cs cur. revert b cur cs.
  apply (FSProofs.kwalk_q_ind (fun b cur cs => forall o, (cur < length (kinds s))%nat ->
           FSModel.kwalk_q s false nosym b cur cs = WOk o -> FSModel.kwalk_q s' false nosym b cur cs = WOk o)).
  { intros b cur o _ H. rewrite FSProofs.kwalk_q_nil in *. exact H. }
  intros b cur c rest IH IHlink o Hcur H.
  rewrite FSProofs.kwalk_q_cons in *. rewrite (Hdir cur Hcur). destruct (negb (is_dir s cur)); [discriminate|].
  destruct (is_nil c || is_dot c); [exact (IH _ _ Hcur H)|].
  destruct (is_dotdot c).
  { rewrite (Hpar cur Hcur). apply IH; [|exact H]. destruct (Nat.eqb cur ROOT); [exact H0|apply Hparc, Hcur]. }
  destruct (lookup s cur c) as [d|] eqn:El; [|discriminate]. rewrite (Hlk _ _ _ El).
  pose proof (closed2_lookup_lt _ _ _ _ Hc El) as Hd. rewrite (Hlb d Hd).
  destruct (FSModel.link_body s d) as [body|]; [|exact (IH _ _ Hd H)].
  rewrite andb_false_r in *. destruct nosym; [discriminate|]. destruct b as [|b']; [discriminate|].
  apply (IHlink b' _ _ eq_refl); [|exact H]. destruct (is_abs body); [exact H0|exact Hcur].
Qed.

Lemma kwalk_q_dirs s nosym : forall cs b cur c,
  is_dir s cur = true -> existsb is_dotdot cs = false ->
  descend_dirs s cur (filter (fun p => negb (noop_part p)) cs) = Some c ->
  FSModel.kwalk_q s false nosym b cur cs = WOk c.
Proof.
  induction cs as [|p rest IH]; intros b cur c Hdir Hdd H.
  - cbn in H. inversion H; subst. apply FSProofs.kwalk_q_nil.
  - cbn [existsb] in Hdd. apply orb_false_iff in Hdd. destruct Hdd as [Hp Hrest].
    rewrite FSProofs.kwalk_q_cons, Hdir, Hp. cbn [negb]. cbn [filter] in H. unfold noop_part in H.
    destruct (is_nil p || is_dot p); cbn [negb] in H; [apply IH; assumption|].
    cbn [descend_dirs] in H. destruct (lookup s cur p) as [d|]; [|discriminate].
    destruct (is_dir s d) eqn:Ed; [|discriminate].
    rewrite (dir_no_body _ _ Ed). apply IH; assumption.
Qed.

Theorem resolution_after_mkdir_all s s' nosym b cs_a cs_r cur o c :
  closed2 s -> extends s s' -> (cur < length (kinds s))%nat ->
  FSModel.kwalk_q s false nosym b cur cs_a = WOk o ->             (* the walk of the existing ancestor, old tree *)
  is_dir s o = true -> existsb is_dotdot cs_r = false ->
  descend_dirs s' o (filter (fun p => negb (noop_part p)) cs_r) = Some c ->     (* where the creation loop ended, new tree *)
  FSModel.kwalk_q s' false nosym b cur (cs_a ++ cs_r) = WOk c.
Proof.
  intros Hc Hext Hcur Hw Hdir Hdd Hdesc.
  pose proof (kwalk_q_extends s s' nosym Hext Hc b cs_a cur o Hcur Hw) as Hw'.
  destruct (kwalk_q_app s' nosym b cs_a cur cs_r o Hw') as (b' & _ & E). rewrite E.
  apply kwalk_q_dirs; [exact (is_dir_extends _ _ _ Hext Hdir)|exact Hdd|exact Hdesc].
Qed.

Lemma anc_iter_shape inner : forall fuel limit a r, In (a, r) (anc_iter fuel inner limit) ->
  (exists pre rest, inner = pre ++ SLASH :: rest /\ a = (if is_nil pre then [SLASH] else pre) /\
                    r = (if is_nil rest then None else Some rest)) \/
  (a = [DOT] /\ r = (if is_nil inner then None else Some inner)).
Proof. exact (anc_iter_split inner). Qed.

Lemma existsb_dotdot_filter cs : existsb is_dotdot (filter (fun p => negb (noop_part p)) cs) = existsb is_dotdot cs.
Proof.
  induction cs as [|p cs IH]; [reflexivity|]. cbn [filter existsb].
  destruct (noop_part p) eqn:En; cbn [negb].
  - rewrite IH. unfold noop_part in En. apply orb_true_iff in En. destruct En as [En|En].
    + destruct p; [reflexivity|discriminate].
    + unfold is_dot in En. apply beq_true_iff in En. subst p. reflexivity.
  - cbn [existsb]. rewrite IH. reflexivity.
Qed.

Lemma kwalk_root_slash s nosym o : is_dir s ROOT = true ->
  FSModel.kwalk s [SLASH] false nosym = WOk o -> o = ROOT /\ FSModel.kwalk_q s false nosym FSModel.KERNEL_LINKS ROOT [[]] = WOk ROOT.
Proof.
  intros Hr H. assert (E : FSModel.kwalk_q s false nosym FSModel.KERNEL_LINKS ROOT [[]] = WOk ROOT)
    by (rewrite (FSProofs.kwalk_q_skip s false nosym _ ROOT [] _ Hr eq_refl); apply FSProofs.kwalk_q_nil).
  change (FSModel.kwalk_q s false nosym FSModel.KERNEL_LINKS ROOT [[]; []] = WOk o) in H.
  rewrite (FSProofs.kwalk_q_skip s false nosym _ ROOT [] _ Hr eq_refl), E in H. injection H as <-. split; [reflexivity|exact E].
Qed.

Lemma kwalk_root_dot s nosym o : is_dir s ROOT = true -> FSModel.kwalk s [DOT] false nosym = WOk o -> o = ROOT.
Proof.
  intros Hr H. change (FSModel.kwalk_q s false nosym FSModel.KERNEL_LINKS ROOT [[DOT]] = WOk o) in H.
  rewrite (FSProofs.kwalk_q_skip s false nosym _ ROOT [DOT] _ Hr eq_refl), FSProofs.kwalk_q_nil in H. injection H as <-. reflexivity.
Qed.

Lemma default_if_nil (rest : bytes) : match (if is_nil rest then None else Some rest) with Some x => x | None => [] end = rest.
Proof. destruct rest; reflexivity. Qed.

Theorem mkdir_all_handle_is_resolution s s' path nosym o rm c :
  closed2 s -> is_dir s ROOT = true -> path <> [] ->
  kpartial s path nosym = KPartial o rm ENOENT ->           (* the partial lookup on the old tree *)
  extends s s' -> is_dir s o = true ->                      (* what the creation loop did (mk_spec_post) ... *)
  existsb is_dotdot (parts_of (Some rm)) = false ->
  descend_dirs s' o (parts_of (Some rm)) = Some c ->        (* ... and where it ended *)
  FSModel.kwalk s' path false nosym = WOk c.
Proof.
  intros Hc Hroot Hne Hkp Hext Hdir Hdd Hdesc.
  unfold kpartial in Hkp. destruct (kw s path nosym) as [o'|e0]; [discriminate|].
  destruct (kpartial_go_in s nosym _ _ _ _ _ Hkp) as (a & r & Hin & Ea & ->). apply kw_inl in Ea.
  unfold parts_of in Hdd, Hdesc. rewrite existsb_dotdot_filter in Hdd.
  (* the components of the path are those of the ancestor, walked on the old tree, then those of the rest *)
  assert (Hsplit : exists cs_a, raw_components path = cs_a ++ raw_components (match r with Some x => x | None => [] end) /\
                                FSModel.kwalk_q s false nosym FSModel.KERNEL_LINKS ROOT cs_a = WOk o).
  { destruct (anc_iter_shape path _ _ _ _ Hin) as [(pre & rest & Hpath & -> & ->)|[ -> -> ]].
    - rewrite default_if_nil, Hpath, raw_components_slash. destruct pre as [|p0 pre'].
      + (* the path starts with '/': the ancestor is "/" *)
        destruct (kwalk_root_slash s nosym o Hroot Ea) as [ -> Hw]. exists [[]]. split; [reflexivity|exact Hw].
      + exists (raw_components (p0 :: pre')). split; [reflexivity|exact Ea].
    - (* no slash left: the ancestor is "." and the whole path remains *)
      rewrite (kwalk_root_dot s nosym o Hroot Ea). exists []. split; [|apply FSProofs.kwalk_q_nil].
      destruct path; [contradiction|reflexivity]. }
  destruct Hsplit as (cs_a & Hsp & Hw).
  unfold FSModel.kwalk. destruct path; [contradiction|]. cbn [is_nil]. rewrite Hsp.
  exact (resolution_after_mkdir_all s s' nosym _ _ _ ROOT o c Hc Hext (closed2_root _ Hc) Hw Hdir Hdd Hdesc).
Qed.

Theorem mkdir_all_kernel_post s rp fz pfuel gh ps rs t root path mode o rm exp :
  fz <> 0%nat -> closed2 s -> is_dir s ROOT = true ->
  ph_mnt gh = Some PROC_MNT -> ph_openat2 gh = true -> rs_kernel rs = true ->
  tget t root = Some ROOT -> tget t (ph_fd gh) = Some (PB s) -> has_nul path = false -> path <> [] ->
  N.ldiff mode MKDIR_ALL_MASK1 = 0 -> N.ldiff mode MKDIR_ALL_MASK2 = 0 ->
  let nosym := has (N.lor OPENAT2_RESOLVE_RESOLVE (rs_flags rs)) RESOLVE_NO_SYMLINKS in
  kpartial s path nosym = KPartial o rm ENOENT ->
  is_dir s o = true -> find_path s o = Some exp -> N.leb READLINK_BUF (N.of_nat (length (render rp exp))) = false ->
  existsb is_dotdot (parts_of (Some rm)) = false ->
  let s' := fst (mk_spec s o (parts_of (Some rm))) in
  (* whatever the outcome: the resulting tree is the old one plus new directories *)
  extends s s' /\
  exists t',
    match snd (mk_spec s o (parts_of (Some rm))) with
    | inl c => exists fd,
        Dyn.drun rp {| ds := s; dt := t; dseen := [] |} (root_mkdir_all fz true (S pfuel) gh ps rs root path mode) =
          DDone {| ds := s'; dt := t'; dseen := [] |} (Ok fd) /\ tget t' fd = Some c /\
        (* the handle is a directory, and it is the kernel's in-root resolution of the path in the resulting tree *)
        is_dir s' c = true /\ FSModel.kwalk s' path false nosym = WOk c
    | inr e =>
        Dyn.drun rp {| ds := s; dt := t; dseen := [] |} (root_mkdir_all fz true (S pfuel) gh ps rs root path mode) =
          DDone {| ds := s'; dt := t'; dseen := [] |} (Err (OsError e))
    end.
Proof.
  intros Hfz Hc Hroot Hmnt Ho2 Hk Htr Htp Hnul Hne Hm1 Hm2 nosym Hkp Hdir Hpath Hshort Hdd s'.
  assert (Holt : (o < length (kinds s))%nat) by (apply is_dir_lt; exact Hdir).
  destruct (kpartial_facts s (proj1 Hc) nosym path o (Some rm) Hnul (or_intror (ex_intro _ rm (conj Hkp eq_refl)))) as [_ Hnulr].
  pose proof (parts_plain (Some rm) Hnulr Hdd) as Hplain.
  destruct (mk_spec_post (parts_of (Some rm)) s o Hc Holt Hplain) as (Hext & _ & Hpost). fold s' in Hext, Hpost.
  split; [exact Hext|].
  destruct (mkdir_all_kernel s rp fz pfuel gh ps rs Hfz Hc Hmnt Ho2 Hk t root path mode o (Some rm) exp Htr Htp Hnul Hm1 Hm2
              (or_intror (ex_intro _ rm (conj Hkp eq_refl))) Hdir Hpath Hshort Hdd) as (t' & Hres).
  exists t'. fold s' in Hres. destruct (snd (mk_spec s o (parts_of (Some rm)))) as [c|e].
  - destruct Hres as (fd & Hrun & Hfd & _). destruct Hpost as [Hdesc Hcdir]. exists fd.
    split; [exact Hrun|]. split; [exact Hfd|]. split; [exact (Hcdir Hdir)|].
    exact (mkdir_all_handle_is_resolution s s' path nosym o rm c Hc Hroot Hne Hkp Hext Hdir Hdd Hdesc).
  - exact (proj1 Hres).
Qed.
