(* DentryProofs.v -- C02: why a passing check_current means "inside the root".
   The kernel's dentry forest at one instant: every object other than the file-system
   root (object 0) has at most one (parent, name); two different objects never share
   both (sibling names are unique).  [up] is d_path: the names from the file-system
   root down to an object, for objects attached to it.  If the rendering of `current`
   is the rendering of the root followed by the components [exp], then `current` IS
   the object reached from the root by walking down [exp] -- in particular it lies in
   the root's tree.  The premise that the root's own rendering is stable between the
   reads (assumption A1 of DESIGN.md C02: nobody renames an ancestor of the root) is
   what lets the three reads of check_current be about one instant. *)
From PV Require Import Path CheckProofs.

Record forest := { parent : nat -> option (nat * bytes) }.

(* sibling names are unique *)
Definition fwf (f : forest) : Prop :=
  forall a c p n, a <> 0%nat -> c <> 0%nat -> parent f a = Some (p, n) -> parent f c = Some (p, n) -> a = c.

(* d_path with fuel: the names from the file-system root (object 0) down to o *)
Fixpoint up (f : forest) (fuel : nat) (o : nat) : option (list bytes) :=
  if Nat.eqb o 0 then Some [] else
  match fuel with
  | O => None
  | S g => match parent f o with
           | None => None                      (* detached: rendered with " (deleted)" or not at all *)
           | Some (p, n) => match up f g p with Some l => Some (l ++ [n]) | None => None end
           end
  end.

(* [desc f a e c]: c is reached from a by walking down the names e *)
Inductive desc (f : forest) : nat -> list bytes -> nat -> Prop :=
| desc_here a : desc f a [] a
| desc_down a e p n c : desc f a e p -> c <> 0%nat -> parent f c = Some (p, n) -> desc f a (e ++ [n]) c.

Lemma up_nil f g o : up f g o = Some [] -> o = 0%nat.
Proof.
  destruct g as [|g]; cbn [up]; destruct (Nat.eqb_spec o 0) as [E|Hne]; try (intros _; exact E); try discriminate.
  destruct (parent f o) as [[p n]|]; [|discriminate]. destruct (up f g p) as [l|]; [|discriminate].
  intro H. inversion H as [H1]. destruct l; discriminate.
Qed.

Lemma up_snoc f g o l n : up f g o = Some (l ++ [n]) ->
  o <> 0%nat /\ exists g' p, parent f o = Some (p, n) /\ up f g' p = Some l.
Proof.
  destruct g as [|g]; cbn [up]; destruct (Nat.eqb_spec o 0) as [E|Hne].
  - intro H. inversion H as [H1]. destruct l; discriminate.
  - discriminate.
  - intro H. inversion H as [H1]. destruct l; discriminate.
  - destruct (parent f o) as [[p n']|]; [|discriminate]. destruct (up f g p) as [l'|] eqn:Eu; [|discriminate].
    intro H. inversion H as [H1]. apply app_inj_tail in H1. destruct H1 as [-> ->].
    split; [exact Hne|]. exists g, p. split; [reflexivity|exact Eu].
Qed.

(* an attached object is identified by its path *)
Lemma up_inj f : fwf f -> forall l g1 g2 a c, up f g1 a = Some l -> up f g2 c = Some l -> a = c.
Proof.
  intro Hwf. induction l as [|n l IH] using rev_ind; intros g1 g2 a c Ha Hc.
  - rewrite (up_nil _ _ _ Ha), (up_nil _ _ _ Hc). reflexivity.
  - destruct (up_snoc _ _ _ _ _ Ha) as (Hna & ga & pa & Hpa & Hua).
    destruct (up_snoc _ _ _ _ _ Hc) as (Hnc & gc & pc & Hpc & Huc).
    assert (E : pa = pc) by (eapply IH; eassumption). subst pc.
    eapply Hwf; eassumption.
Qed.

(* the forest argument: path(current) = path(root) ++ exp  ==>  current is the descendant of
   the root along exp *)
Theorem path_extends_means_descendant f : fwf f ->
  forall exp R g1 g2 root cur, up f g1 root = Some R -> up f g2 cur = Some (R ++ exp) -> desc f root exp cur.
Proof.
  intro Hwf. induction exp as [|n e IH] using rev_ind; intros R g1 g2 root cur Hr Hc.
  - rewrite app_nil_r in Hc. rewrite (up_inj f Hwf _ _ _ _ _ Hr Hc). constructor.
  - rewrite app_assoc in Hc. destruct (up_snoc _ _ _ _ _ Hc) as (Hnc & gc & pc & Hpc & Huc).
    eapply desc_down; [eapply IH; eassumption|exact Hnc|exact Hpc].
Qed.

(* a descendant along names is inside: the root is among its ancestors *)
Fixpoint ancestor (f : forest) (k : nat) (o : nat) : option nat :=
  match k with
  | O => Some o
  | S j => match parent f o with Some (p, _) => ancestor f j p | None => None end
  end.

Lemma desc_ancestor f a e c : desc f a e c -> ancestor f (length e) c = Some a.
Proof.
  induction 1 as [a|a e p n c _ IH Hc Hp]; [reflexivity|].
  rewrite app_length. cbn [length]. rewrite Nat.add_1_r. cbn [ancestor]. rewrite Hp. exact IH.
Qed.

(* the kernel's rendering of a descriptor's object: a byte string whose normal form
   (std::path components) is the object's path in the forest *)
Definition renders (f : forest) (o : nat) (p : bytes) : Prop := exists g, up f g o = Some (nf p).
