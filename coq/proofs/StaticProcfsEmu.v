(* StaticProcfsEmu.v -- C01: as_unsafe_path through the EMULATED procfs resolver
   (openat2 absent: the configuration in which the emulated in-root resolver is
   used in practice) on the static kernel's procfs tree.  The resolver walks
   /proc/thread-self/fd/N component by component: thread-self is a symlink whose
   body it splices in, every step's mount id is verified, the final component is
   re-opened with the caller's flags. *)
From PV Require Import Static PathProofs StaticProofs StaticProcfs DisciplineProofs BitsProofs.

(* A stack of descriptors allocated on top of a table, as a list.  The walk below states the
   same discipline with [Above] (StaticProcfs), one descriptor at a time; these are its list form. *)

Inductive Stk (t : fdt) : list (Z * nat) -> Prop :=
| stk_nil : Stk t []
| stk_one k v : (fresh t <= k)%Z -> Stk t [(k, v)]
| stk_cons k v k' v' l : (k' < k)%Z -> Stk t ((k', v') :: l) -> Stk t ((k, v) :: (k', v') :: l).

(* the top of a stack is above the table it stands on *)
Lemma stk_head_above t : forall l k v, Stk t ((k, v) :: l) -> Above t k.
Proof.
  induction l as [|[k' v'] l IH]; intros k v H; inversion H as [|k0 v0 Hge|k0 v0 k1 v1 l0 Hlt Hs]; subst; [exact Hge|].
  exact (Z.le_trans _ _ _ (IH k' v' Hs) (Z.lt_le_incl _ _ Hlt)).
Qed.

Lemma fresh_app_ge t l : (fresh t <= fresh (l ++ t))%Z.
Proof.
  induction l as [|[k v] l IH]; cbn [app]; [lia|].
  change (fresh ((k, v) :: l ++ t)) with (Z.max (k + 1) (fresh (l ++ t))). lia.
Qed.

Lemma stk_second t e k v l : Stk t (e :: (k, v) :: l) -> tget ((e :: (k, v) :: l) ++ t) k = Some v.
Proof.
  intro Hs. destruct e as [k2 v2]. inversion Hs as [| |a b c d l' Hlt Hs' E]; subst.
  unfold tget. rewrite (proj2 (Z.ltb_ge k 0) (above_pos t k (stk_head_above t l k v Hs'))). cbn [app tfind].
  rewrite (proj2 (Z.eqb_neq k2 k) (not_eq_sym (Z.lt_neq _ _ Hlt))), Z.eqb_refl. reflexivity.
Qed.

Lemma stk_tail t e l : Stk t (e :: l) -> Stk t l.
Proof. intro H. inversion H; subst; [constructor|assumption]. Qed.

Definition okpart (d : bytes) : Prop :=
  has_nul d = false /\ has_slash d = false /\ is_nil d = false /\ is_dotdot d = false.

Lemma dec_okpart n : okpart (dec n).
Proof. repeat split; [apply dec_no_nul|apply dec_no_slash|apply dec_not_nil|apply dec_not_dotdot]. Qed.

Lemma final_extra_dir fl : has (N.lor fl PROCFS_FINAL_EXTRA) O_DIRECTORY = has fl O_DIRECTORY.
Proof. change O_DIRECTORY with (2 ^ 16). rewrite has_lor_bit. apply orb_false_r. Qed.

Lemma max_links_SS : exists bd, N.to_nat MAX_SYMLINK_TRAVERSALS = S (S bd).
Proof. exists 126%nat. reflexivity. Qed.

Section PE.
Variable s : fs.
Variable rp : bytes.
Variable fz : nat.
Hypothesis Hfz : fz <> 0%nat.

Notation run := (run s rp).
Notation MNT := (Some PROC_MNT).

Lemma obj_is_dir_p c : (c < NP)%nat -> obj_is_dir s (PB s + c) = FSModel.is_dir PFS c.
Proof.
  intro H. unfold obj_is_dir.
  rewrite (proj2 (Nat.leb_le _ _) (Nat.le_add_r (PB s) c)), (Nat.add_comm (PB s) c), Nat.add_sub, (proj2 (Nat.ltb_lt _ _) H). reflexivity.
Qed.

(* what a descriptor allocated later is open on does not change a lookup that succeeds *)
Lemma psem_open_alloc T n v k part obj :
  Above T n -> psem_open s T k part = inl obj -> psem_open s ((n, v) :: T) k part = inl obj.
Proof.
  intro Hn. unfold psem_open. destruct (Nat.eqb k 5); [|exact (fun H => H)].
  destruct (parse_dec part) as [x|]; [|exact (fun H => H)].
  destruct (tget T x) as [target|] eqn:E; [|discriminate]. rewrite (above_old T n v x target Hn E). exact (fun H => H).
Qed.

(* openat(cur -> procfs object PB+k, name, fl) for flags with O_PATH: O_NOFOLLOW is forced *)
Lemma run_popenat T cur k part fl obj :
  tget T cur = Some (PB s + k)%nat -> has_nul part = false -> has_slash part = false -> has fl O_PATH = true ->
  psem_open s T k part = inl obj ->
  run T (w_openat fz cur part fl 0) =
  if has fl O_DIRECTORY && negb (obj_is_dir s obj) then Done T (Err ENOTDIR) else Done ((fresh T, obj) :: T) (Ok (fresh T)).
Proof.
  intros Hc Hnul Hsl Hp Hps.
  pose proof (sem_openat s rp T cur _ part _ (N.land 0 MODE_BITS) Hc (opath_nofollow_word fl Hp) Hsl Hnul) as Hs.
  rewrite (proj2 (Nat.leb_le _ _) (Nat.le_add_r (PB s) k)), (Nat.add_comm (PB s) k), Nat.add_sub, Hps, openat_word_dir in Hs.
  unfold w_openat. rewrite (run_w_openat_follow s rp fz Hfz T cur _ part _ 0 Hc Hnul).
  destruct (has fl O_DIRECTORY && negb (obj_is_dir s obj)).
  - rewrite (answer_ret s rp T _ _ Hs). reflexivity.
  - rewrite (answer_new s rp T _ _ Hs), as_fd_fresh. reflexivity.
Qed.

(* One iteration of pwalk_body with its three parts named -- what follows the look at the
   component when it is the last one ([pw_final]) and when it is not ([pw_continue]) -- so that
   a proof about one part does not step through the others. *)
Definition pw_fail (current next : Z) (e : ekind) : prog (result Z ekind) :=
  close next ;;; close current ;;; Ret (Err e).

Definition pw_continue (rflags : N) (follow : option (Z -> list bytes -> prog (result Z ekind)))
           (inner : Z -> list bytes -> prog (result Z ekind)) (current next : Z) (rest : list bytes) (is_link : bool)
  : prog (result Z ekind) :=
  if negb is_link then close current ;;; inner next rest
  else if has rflags RESOLVE_NO_SYMLINKS then pw_fail current next (OsError ELOOP)
  else match follow with
       | None => pw_fail current next (OsError ELOOP)
       | Some go =>
           r <- os (w_readlinkat fz next []) ;;
           match r with
           | Err e => pw_fail current next e
           | Ok target =>
               if is_abs target then pw_fail current next (OsError ELOOP)
               else close next ;;; go current (raw_components target ++ rest)
           end
       end.

Definition pw_final (root_mnt : option N) (oflags rflags : N) follow inner (current next : Z) (part : bytes)
           (rest : list bytes) (is_link : bool) : prog (result Z ekind) :=
  r <- w_openat fz current part (N.lor oflags PROCFS_FINAL_EXTRA) 0 ;;
  match r with
  | Ok final =>
      r <- verify_same_mnt fz root_mnt final [] ;;
      match r with
      | Err e => close final ;;; pw_fail current next e
      | Ok _ => close next ;;; close current ;;; Ret (Ok final)
      end
  | Err e =>
      if has oflags O_NOFOLLOW || negb (has oflags O_DIRECTORY) || negb (N.eqb e ENOTDIR) || negb is_link
      then pw_fail current next (OsError e)
      else pw_continue rflags follow inner current next rest is_link
  end.

Lemma pwalk_body_cons root_mnt oflags rflags follow cur part rest :
  is_nil part = false -> is_dotdot part = false ->
  pwalk_body fz root_mnt oflags rflags follow cur (part :: rest) =
  (r <- os (w_openat fz cur part PROCFS_WALK_FLAGS 0) ;;
   match r with
   | Err e => close cur ;;; Ret (Err e)
   | Ok next =>
       r <- verify_same_mnt fz root_mnt next [] ;;
       match r with
       | Err e => pw_fail cur next e
       | Ok _ =>
           r <- os (w_fstatat fz next []) ;;
           match r with
           | Err e => pw_fail cur next e
           | Ok meta =>
               if is_nil rest && negb (N.eqb (N.land oflags PROCFS_CASE1_MASK) PROCFS_CASE1_VALUE)
               then pw_final root_mnt oflags rflags follow (pwalk_body fz root_mnt oflags rflags follow) cur next part rest
                             (is_symlink_mode (st_mode meta))
               else pw_continue rflags follow (pwalk_body fz root_mnt oflags rflags follow) cur next rest
                                (is_symlink_mode (st_mode meta))
           end
       end
   end).
Proof. intros Hnil Hdd. cbn [pwalk_body]. rewrite Hnil, Hdd. reflexivity. Qed.

(* the look every iteration starts with -- open the component O_PATH|O_NOFOLLOW, check its mount,
   fstat it -- up to the fork *)
Lemma run_body_probe oflags rflags follow T cur k part rest obj :
  tget T cur = Some (PB s + k)%nat -> okpart part -> psem_open s T k part = inl obj -> (PB s <= obj)%nat ->
  run T (pwalk_body fz MNT oflags rflags follow cur (part :: rest)) =
  run ((fresh T, obj) :: T)
      (let is_link := negb (obj_is_dir s obj) in
       if is_nil rest && negb (N.eqb (N.land oflags PROCFS_CASE1_MASK) PROCFS_CASE1_VALUE)
       then pw_final MNT oflags rflags follow (pwalk_body fz MNT oflags rflags follow) cur (fresh T) part rest is_link
       else pw_continue rflags follow (pwalk_body fz MNT oflags rflags follow) cur (fresh T) rest is_link).
Proof.
  intros Hc (Hnul & Hsl & Hnil & Hdd) Hps Hle.
  assert (Hn : tget ((fresh T, obj) :: T) (fresh T) = Some obj) by apply tget_new.
  etransitivity; [exact (f_equal (run T) (pwalk_body_cons MNT oflags rflags follow cur part rest Hnil Hdd))|].
  rewrite (run_bind s rp), (run_os s rp), (run_popenat T cur k part PROCFS_WALK_FLAGS obj Hc Hnul Hsl eq_refl Hps).
  change (has PROCFS_WALK_FLAGS O_DIRECTORY) with false. cbn [andb].
  rewrite (run_bind s rp), (run_verify_mnt s rp fz Hfz _ _ _ Hn Hle).
  rewrite (run_bind s rp), (run_fstatat_any s rp fz Hfz _ _ _ Hn), (proj2 (Nat.leb_le _ _) Hle).
  cbn [st_mode]. destruct (obj_is_dir s obj); reflexivity.
Qed.

(* a directory that is not the last component: step into it, drop the previous one *)
Lemma body_dir_step oflags rflags follow T0 cur k part rest c :
  Above T0 cur -> okpart part ->
  psem_open s ((cur, (PB s + k)%nat) :: T0) k part = inl (PB s + c)%nat -> obj_is_dir s (PB s + c) = true ->
  is_nil rest = false ->
  exists n, Above T0 n /\
    run ((cur, (PB s + k)%nat) :: T0) (pwalk_body fz MNT oflags rflags follow cur (part :: rest)) =
    run ((n, (PB s + c)%nat) :: T0) (pwalk_body fz MNT oflags rflags follow n rest).
Proof.
  intros Hab Hok Hps Hdir Hrest. set (T := (cur, (PB s + k)%nat) :: T0) in *.
  exists (fresh T). split; [apply (above_cons T0 cur _ _ (above_fresh T))|].
  rewrite (run_body_probe oflags rflags follow T cur k part rest _ (above_same T0 cur _ Hab) Hok Hps (Nat.le_add_r _ _)).
  rewrite Hdir, Hrest. unfold pw_continue. cbn [andb negb]. rewrite (run_bind s rp), run_close.
  unfold T. rewrite (above_close2 T0 cur _ _ _ Hab (above_fresh _)). reflexivity.
Qed.

(* the last component, opened once to look at it and once more with the caller's flags (every
   flag set but plain O_PATH); both earlier descriptors are closed *)
Lemma body_final_step oflags rflags follow T0 cur k part obj :
  Above T0 cur -> okpart part ->
  psem_open s ((cur, (PB s + k)%nat) :: T0) k part = inl obj -> (PB s <= obj)%nat ->
  N.eqb (N.land oflags PROCFS_CASE1_MASK) PROCFS_CASE1_VALUE = false -> has oflags O_PATH = true ->
  (has oflags O_DIRECTORY && negb (obj_is_dir s obj)) = false ->
  exists m, run ((cur, (PB s + k)%nat) :: T0) (pwalk_body fz MNT oflags rflags follow cur [part]) = Done ((m, obj) :: T0) (Ok m)
            /\ Above T0 m.
Proof.
  intros Hab Hok Hps Hle Hcase Hp Hdir. set (T := (cur, (PB s + k)%nat) :: T0) in *.
  pose proof (above_same T0 cur (PB s + k)%nat Hab) as Hc. fold T in Hc.
  set (T1 := (fresh T, obj) :: T). set (T2 := (fresh T1, obj) :: T1).
  destruct (above_cons T _ _ _ (above_fresh T1)) as [Hm _]. exists (fresh T1). split; [|apply (above_cons T0 cur _ _ Hm)].
  rewrite (run_body_probe oflags rflags follow T cur k part [] obj Hc Hok Hps Hle), Hcase. fold T1.
  destruct Hok as (Hnul & Hsl & _ & _). unfold pw_final. cbn [is_nil andb negb].
  pose proof (run_popenat T1 cur k part (N.lor oflags PROCFS_FINAL_EXTRA) obj (tget_new_old T _ _ _ Hc) Hnul Hsl
                (has_lor_l _ _ _ Hp) (psem_open_alloc T _ _ k part obj (above_fresh T) Hps)) as Hopen.
  rewrite final_extra_dir, Hdir in Hopen. rewrite (run_bind s rp), Hopen. fold T2.
  rewrite (run_bind s rp), (run_verify_mnt s rp fz Hfz T2 _ _ (tget_new T1 obj) Hle).
  rewrite (run_bind s rp), run_close. unfold T2, T1. rewrite (above_close2 T _ _ _ _ (above_fresh T) (above_fresh _)).
  rewrite (run_bind s rp), run_close. unfold T. rewrite (above_close2 T0 cur _ _ _ Hab Hm). reflexivity.
Qed.

(* /proc/thread-self asked for as a directory: O_DIRECTORY|O_NOFOLLOW on the symlink is
   ENOTDIR, so its body is spliced in and the walk goes on from the same directory *)
Lemma body_thread_self T cur go :
  tget T cur = Some (PB s + 0)%nat ->
  run T (pwalk_body fz MNT OPEN_BASE_FLAGS 0 (Some go) cur [b "thread-self"]) =
  run T (go cur [b "1"; b "task"; b "1"]).
Proof.
  intro Hc.
  assert (Hnd : obj_is_dir s (PB s + 1) = false) by (rewrite obj_is_dir_p by (unfold NP; lia); reflexivity).
  set (T1 := (fresh T, (PB s + 1)%nat) :: T).
  assert (Hn : tget T1 (fresh T) = Some (PB s + 1)%nat) by apply tget_new.
  (* the facts about the closed names and flag words are settled before they are rewritten with *)
  pose proof (run_body_probe OPEN_BASE_FLAGS 0 (Some go) T cur 0 (b "thread-self") [] (PB s + 1)%nat Hc
                ltac:(repeat split) eq_refl (Nat.le_add_r _ _)) as Hlook.
  pose proof (run_popenat T1 cur 0 (b "thread-self") (N.lor OPEN_BASE_FLAGS PROCFS_FINAL_EXTRA) (PB s + 1)%nat
                (tget_new_old T _ _ _ Hc) eq_refl eq_refl eq_refl eq_refl) as Hopen.
  rewrite final_extra_dir, Hnd in Hopen. change (has OPEN_BASE_FLAGS O_DIRECTORY && negb false) with true in Hopen. cbv iota in Hopen.
  assert (Hlb : FSModel.link_body PFS 1 = Some (b "1/task/1")) by reflexivity.
  pose proof (sem_readlinkat_pfs s rp T1 _ 1 _ Hn ltac:(unfold NP; lia) Hlb) as Hsem.
  assert (Hlen : N.leb READLINK_BUF (N.of_nat (length (b "1/task/1"))) = false) by reflexivity.
  pose proof (run_readlinkat_sem s rp fz Hfz T1 _ _ (b "1/task/1") Hn Hsem Hlen) as Hbody.
  rewrite Hlook, Hnd. fold T1.
  change (is_nil [] && negb (N.eqb (N.land OPEN_BASE_FLAGS PROCFS_CASE1_MASK) PROCFS_CASE1_VALUE)) with true. cbv iota.
  unfold pw_final. rewrite (run_bind s rp), Hopen. cbn [Static.run].
  (* ENOTDIR for O_DIRECTORY without O_NOFOLLOW on a link: not a failure, the link is followed *)
  change (has OPEN_BASE_FLAGS O_NOFOLLOW || negb (has OPEN_BASE_FLAGS O_DIRECTORY) || negb (N.eqb ENOTDIR ENOTDIR) || negb (negb false))
    with false. cbv iota.
  unfold pw_continue. change (has 0 RESOLVE_NO_SYMLINKS) with false. cbn [negb]. rewrite (run_bind s rp), Hbody.
  change (is_abs (b "1/task/1")) with false. cbv iota.
  rewrite (run_bind s rp), run_close. unfold T1. rewrite (above_close T _ _ (above_fresh T)). reflexivity.
Qed.

(* the directories of the static part of procfs that [dirs] leads through, from object k.
   Objects are numbered as Static.PFS builds them: 0 /proc, 1 thread-self, 2 /proc/1, 3 task,
   4 the thread's directory (P_THREAD), 5 its fd directory (P_FDDIR), whose entries are not in
   PFS: [psem_open] makes them up from the descriptor table. *)
Fixpoint pdirs (k : nat) (dirs : list bytes) : option nat :=
  match dirs with
  | [] => Some k
  | d :: r =>
      match open1 PFS k d with
      | inl c => if Nat.eqb k 5 || negb (Nat.ltb k NP) || negb (Nat.ltb c NP && FSModel.is_dir PFS c) then None else pdirs c r
      | inr _ => None
      end
  end.

Lemma run_pwalk_dirs oflags rflags follow rest : is_nil rest = false ->
  forall dirs k k' T0 cur, pdirs k dirs = Some k' -> Forall okpart dirs -> Above T0 cur ->
  exists n, Above T0 n /\
    run ((cur, (PB s + k)%nat) :: T0) (pwalk_body fz MNT oflags rflags follow cur (dirs ++ rest)) =
    run ((n, (PB s + k')%nat) :: T0) (pwalk_body fz MNT oflags rflags follow n rest).
Proof.
  intro Hrest. induction dirs as [|d dirs IH]; intros k k' T0 cur Hd Hok Hab.
  - inversion Hd; subst. exists cur. split; [exact Hab|reflexivity].
  - cbn [pdirs] in Hd. destruct (open1 PFS k d) as [c|] eqn:Eo; [|discriminate].
    destruct (Nat.eqb k 5) eqn:E5; [discriminate|]. destruct (Nat.ltb k NP) eqn:Ek; [|discriminate].
    destruct (Nat.ltb c NP) eqn:Ec; [|discriminate]. destruct (FSModel.is_dir PFS c) eqn:Edir; [|discriminate].
    cbn [orb andb negb] in Hd. inversion Hok as [|x l Hd0 Hok']; subst x l. cbn [app].
    destruct (body_dir_step oflags rflags follow T0 cur k d (dirs ++ rest) c Hab Hd0) as (n & Hn & ->).
    + unfold psem_open. rewrite E5, Ek, Eo. reflexivity.
    + rewrite obj_is_dir_p by (apply Nat.ltb_lt, Ec). exact Edir.
    + destruct dirs; [exact Hrest|reflexivity].
    + apply (IH c k' T0 n Hd Hok' Hn).
Qed.

Lemma run_pwalk_path oflags follow T0 cur k dirs k' last obj :
  Above T0 cur -> pdirs k dirs = Some k' -> Forall okpart dirs -> okpart last ->
  psem_open s T0 k' last = inl obj -> (PB s <= obj)%nat ->
  N.eqb (N.land oflags PROCFS_CASE1_MASK) PROCFS_CASE1_VALUE = false -> has oflags O_PATH = true ->
  (has oflags O_DIRECTORY && negb (obj_is_dir s obj)) = false ->
  exists m, run ((cur, (PB s + k)%nat) :: T0) (pwalk_body fz MNT oflags 0 follow cur (dirs ++ [last])) = Done ((m, obj) :: T0) (Ok m)
            /\ Above T0 m.
Proof.
  intros Hab Hd Hok Hl Hps Hle Hcase Hp Hdir.
  destruct (run_pwalk_dirs oflags 0 follow [last] eq_refl dirs k k' T0 cur Hd Hok Hab) as (n & Hn & ->).
  apply body_final_step; try assumption. apply psem_open_alloc; assumption.
Qed.

Lemma run_opath_resolve_start T P k path oflags : tget T P = Some (PB s + k)%nat ->
  exists bd, run T (opath_resolve fz P path oflags 0) =
    run ((fresh T, (PB s + k)%nat) :: T)
        (pwalk_body fz MNT oflags 0 (Some (pwalk fz (S bd) MNT oflags 0)) (fresh T) (raw_components path)).
Proof.
  intro HP. destruct max_links_SS as [bd E]. exists bd. unfold opath_resolve.
  rewrite (run_bindR s rp), (run_fetch_mnt s rp fz Hfz T P _ HP).
  destruct (Nat.leb_spec (PB s) (PB s + k)) as [_|Hb]; [|lia].
  rewrite (run_bindR s rp), (run_dup s rp T P _ HP), E. reflexivity.
Qed.

Lemma presolves_emu T P k path dirs last k' obj fl :
  tget T P = Some (PB s + k)%nat -> procfs_flags_invalid fl = false ->
  raw_components path = dirs ++ [last] -> pdirs k dirs = Some k' -> Forall okpart dirs -> okpart last ->
  psem_open s T k' last = inl obj -> (PB s <= obj)%nat ->
  N.eqb (N.land fl PROCFS_CASE1_MASK) PROCFS_CASE1_VALUE = false -> has fl O_PATH = true ->
  (has fl O_DIRECTORY && negb (obj_is_dir s obj)) = false ->
  presolves s rp fz false T P path fl obj.
Proof.
  intros HP Hfl Hraw Hd Hok Hl Hps Hle Hcase Hp Hdir. unfold presolves, presolve. rewrite Hfl.
  destruct (run_opath_resolve_start T P k path fl HP) as [bd ->]. rewrite Hraw.
  apply (run_pwalk_path fl _ T (fresh T) k dirs k' last obj (above_fresh T)); assumption.
Qed.

Lemma raw_components_fd d : has_slash d = false -> raw_components (b "fd/" ++ d) = [b "fd"] ++ [d].
Proof.
  intro H. change (b "fd/" ++ d) with (b "fd" ++ SLASH :: d).
  rewrite raw_components_slash, (raw_components_noslash_single d H). reflexivity.
Qed.

Lemma routes_emu : routes s rp fz false.
Proof.
  assert (Hd4 : obj_is_dir s (P_THREAD s) = true) by (unfold P_THREAD; rewrite obj_is_dir_p by (unfold NP; lia); reflexivity).
  assert (Hd5 : obj_is_dir s (P_FDDIR s) = true) by (unfold P_FDDIR; rewrite obj_is_dir_p by (unfold NP; lia); reflexivity).
  split; [|split].
  - (* thread-self: the symlink, then 1/task/1 *)
    intros T P HP. unfold presolves, presolve. change (procfs_flags_invalid OPEN_BASE_FLAGS) with false. cbv iota.
    rewrite <- (Nat.add_0_r (PB s)) in HP. destruct (run_opath_resolve_start T P 0 (b "thread-self") OPEN_BASE_FLAGS HP) as [bd ->].
    change (raw_components (b "thread-self")) with [b "thread-self"].
    rewrite (body_thread_self _ (fresh T) _ (tget_new T _)).
    change (pwalk fz (S bd) MNT OPEN_BASE_FLAGS 0)
      with (pwalk_body fz MNT OPEN_BASE_FLAGS 0 (match bd with O => None | S _ => Some (pwalk fz bd MNT OPEN_BASE_FLAGS 0) end)).
    refine (run_pwalk_path OPEN_BASE_FLAGS _ T (fresh T) 0 [b "1"; b "task"] 3 (b "1") (P_THREAD s) (above_fresh T)
              eq_refl _ _ eq_refl (Nat.le_add_r _ 4) eq_refl eq_refl _).
    + repeat constructor.
    + repeat split.
    + rewrite Hd4. reflexivity.
  - intros T d Hd.
    refine (presolves_emu T d 4 (b "fd") [] (b "fd") 4 (P_FDDIR s) (N.lor OPEN_FOLLOW_PARENT_FLAGS PROCFS_OPEN_FORCED) Hd eq_refl eq_refl eq_refl (Forall_nil _) _
              eq_refl (Nat.le_add_r _ 5) eq_refl eq_refl _).
    + repeat split.
    + rewrite Hd5. reflexivity.
  - intros T d fd o Hd Hfd.
    refine (presolves_emu T d 4 _ [b "fd"] (dec (Z.to_N fd)) 5 (P_LINK s o) (N.lor PROCFS_READLINK_FLAGS PROCFS_OPEN_FORCED) Hd eq_refl (raw_components_fd _ (dec_no_slash _))
              eq_refl _ (dec_okpart _) _ _ eq_refl eq_refl eq_refl).
    + repeat constructor.
    + unfold psem_open. cbn [Nat.eqb]. rewrite parse_dec_dec, Z2N.id, Hfd by exact (tget_pos _ _ _ Hfd). reflexivity.
    + unfold P_LINK. rewrite <- Nat.add_assoc. apply Nat.le_add_r.
Qed.

End PE.

Lemma routes_any s rp fz o2 : fz <> 0%nat -> routes s rp fz o2.
Proof. intro Hfz. destruct o2; [apply routes_openat2|apply routes_emu]; exact Hfz. Qed.

Section PW.
Variable s : fs.
Variable rp : bytes.
Variable fz : nat.
Hypothesis Hfz : fz <> 0%nat.
Variable gh : phandle.
Hypothesis Hmnt : ph_mnt gh = Some PROC_MNT.
Hypothesis Ho2 : ph_openat2 gh = false.

Notation run := (run s rp).

Lemma run_os_err {A} T T' (p : prog (result A N)) e : run T p = Done T' (Err e) -> run T (@os A p) = Done T' (Err (OsError e)).
Proof. intro H. rewrite (run_os s rp), H. reflexivity. Qed.

Theorem run_as_unsafe_path_emu pf t fd o exp :
  tget t (ph_fd gh) = Some (PB s) ->
  tget t fd = Some o -> find_path s o = Some exp ->
  N.leb READLINK_BUF (N.of_nat (length (render rp exp))) = false ->
  run t (as_unsafe_path fz false (S pf) gh fd) = Done t (Ok (render rp exp)).
Proof. exact (run_as_unsafe_path_any s rp fz Hfz gh Hmnt false Ho2 (routes_emu s rp fz Hfz) pf t fd o exp). Qed.

End PW.
