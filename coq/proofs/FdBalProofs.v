(* FdBalProofs.v -- C11: composition rules for the balance judgement [bal], its soundness on
   every trace the model accepts, and the per-program lemmas.  [bal] is a judgement of its own
   and not a DisciplineProofs.judge: it carries a state through the program (the descriptors the
   operation owns) and quantifies only over answers that hand out no number it holds
   ([fresh_for]), where a judge is a predicate on single calls, for all answers.
   Names: [x_bal] states what program x owns at its end, [x_new] the same with [Rnew] (the
   descriptor returned is new); a lemma named [_p] is a rule for any postcondition [Rperm g],
   with the comparison of owned lists as its premise. *)
From PV Require Import FdBalance ProgTac.
From Coq Require Import Permutation.

Lemma mem_in x l : mem x l = true <-> In x l.
Proof.
  unfold mem. rewrite existsb_exists. split.
  - intros [y [Hy He]]. apply Z.eqb_eq in He. subst. exact Hy.
  - intro H. exists x. split; [exact H|apply Z.eqb_refl].
Qed.

Lemma mem_perm x l l' : Permutation l l' -> mem x l = mem x l'.
Proof.
  intro H. destruct (mem x l') eqn:E.
  - apply mem_in. apply mem_in in E. eapply Permutation_in; [apply Permutation_sym; exact H|exact E].
  - destruct (mem x l) eqn:E2; [|reflexivity]. apply mem_in in E2.
    assert (In x l') by (eapply Permutation_in; eassumption). apply mem_in in H0. congruence.
Qed.

Lemma remove_one_in x l : In x l -> Permutation l (x :: remove_one x l).
Proof.
  induction l as [|y t IH]; [intros []|]. intro H. cbn [remove_one].
  destruct (Z.eqb_spec x y) as [->|Hne]; [reflexivity|].
  destruct H as [H|H]; [congruence|].
  eapply perm_trans; [apply perm_skip, IH, H|apply perm_swap].
Qed.

Lemma remove_one_notin x l : ~ In x l -> remove_one x l = l.
Proof.
  induction l as [|y t IH]; [reflexivity|]. intro H. cbn [remove_one].
  destruct (Z.eqb_spec x y) as [->|Hne]; [exfalso; apply H; left; reflexivity|].
  rewrite IH; [reflexivity|]. intro; apply H; right; assumption.
Qed.

Lemma remove_one_perm x l l' : Permutation l l' -> Permutation (remove_one x l) (remove_one x l').
Proof.
  intro H. destruct (in_dec Z.eq_dec x l) as [Hin|Hnin].
  - assert (Hin' : In x l') by (eapply Permutation_in; eassumption).
    apply Permutation_cons_inv with (a := x).
    eapply perm_trans; [apply Permutation_sym, remove_one_in, Hin|].
    eapply perm_trans; [exact H|apply remove_one_in, Hin'].
  - assert (Hnin' : ~ In x l') by (intro; apply Hnin; eapply Permutation_in; [apply Permutation_sym|]; eassumption).
    rewrite !remove_one_notin by assumption. exact H.
Qed.

Lemma remove_one_cons_perm x l l' : Permutation l (x :: l') -> Permutation (remove_one x l) l'.
Proof.
  intro H. eapply perm_trans; [apply remove_one_perm, H|]. cbn [remove_one]. rewrite Z.eqb_refl. reflexivity.
Qed.

Lemma step_owned_nonclose o c r : (forall fd, c <> Close fd) -> step_owned o c r = opens c r ++ o.
Proof. intro H. destruct c; try reflexivity. exfalso. exact (H fd eq_refl). Qed.

Lemma step_owned_perm o o' c r : Permutation o o' -> Permutation (step_owned o c r) (step_owned o' c r).
Proof.
  intro H. destruct c; cbn [step_owned]; try (apply Permutation_app_head; exact H).
  apply remove_one_perm, H.
Qed.

Definition perm_closed {A} (R : A -> list Z -> Prop) : Prop :=
  forall a o1 o2, R a o1 -> Permutation o1 o2 -> R a o2.

Lemma bal_perm {A} (R : A -> list Z -> Prop) (p : prog A) o1 o2 :
  perm_closed R -> bal R o1 p -> Permutation o1 o2 -> bal R o2 p.
Proof.
  intros HR Hb. revert o2. induction Hb as [a o Ha | c k o Hc Hk IH | s o | o]; intros o2 Hp.
  - constructor. eapply HR; eassumption.
  - constructor.
    + intros fd E. rewrite <- (mem_perm fd _ _ Hp). apply Hc, E.
    + intros r Hf. apply IH; [|apply step_owned_perm, Hp].
      intros n Hn Hin. apply (Hf n Hn). eapply Permutation_in; [exact Hp|exact Hin].
  - constructor.
  - constructor.
Qed.

Lemma bal_bind {A B} (R1 : A -> list Z -> Prop) (R2 : B -> list Z -> Prop) o (p : prog A) (f : A -> prog B) :
  bal R1 o p -> (forall a o', R1 a o' -> bal R2 o' (f a)) -> bal R2 o (bind p f).
Proof.
  intros Hp Hf. induction Hp as [a o Ha | c k o Hc Hk IH | s o | o]; cbn.
  - apply Hf, Ha.
  - constructor; [exact Hc|]. intros r Hfr. apply IH, Hfr.
  - constructor.
  - constructor.
Qed.

Lemma bal_if {A} (R : A -> list Z -> Prop) o (b : bool) (p q : prog A) :
  bal R o p -> bal R o q -> bal R o (if b then p else q).
Proof. intros Hp Hq. destruct b; assumption. Qed.

Lemma bal_weaken {A} (R1 R2 : A -> list Z -> Prop) o (p : prog A) :
  bal R1 o p -> (forall a o', R1 a o' -> R2 a o') -> bal R2 o p.
Proof. intros Hp H. induction Hp; constructor; auto. Qed.

(* ---- soundness on traces: what the judgement says about every trace that the
   model accepts (tie T1 replays recorded traces through [run_trace]) ---------- *)

(* a balanced program closes only what it owns: the list of foreign closes stays as it is *)
Lemma own_close_not_foreign o c foreign :
  (forall fd, c = Close fd -> mem fd o = true) ->
  match c with Close fd => if mem fd o then foreign else fd :: foreign | _ => foreign end = foreign.
Proof. intro Hc. destruct c; try reflexivity. rewrite (Hc _ eq_refl). reflexivity. Qed.

Theorem bal_sound_on_traces {A} (R : A -> list Z -> Prop) (p : prog A) :
  forall o t idx a n foreign,
    bal R o p -> run_trace p t idx = RDone a n -> trace_fresh t o = true ->
    exists o', trace_owned t o foreign = (o', foreign) /\ R a o'.
Proof.
  intros o t idx a n foreign Hb. revert t idx.
  induction Hb as [a' o Ha | c k o Hc Hk IH | s o | o]; intros t idx Hr Hfr; apply run_trace_done in Hr;
    try contradiction.
  - destruct Hr as (-> & -> & _). exists o. split; [reflexivity|exact Ha].
  - destruct Hr as (r & t' & -> & Hr). cbn [trace_owned trace_fresh] in *.
    apply andb_true_iff in Hfr. destruct Hfr as [Hf1 Hf2].
    rewrite (own_close_not_foreign _ _ foreign Hc).
    eapply IH; [|exact Hr|exact Hf2].
    intros m Hm Hin. rewrite forallb_forall in Hf1. apply Hf1 in Hm.
    apply mem_in in Hin. rewrite Hin in Hm. discriminate.
Qed.

(* every postcondition in use says of which list the owned set is a permutation *)
Definition Rperm {A} (g : A -> list Z) : A -> list Z -> Prop := fun a o' => Permutation o' (g a).

Lemma perm_closed_Rperm {A} (g : A -> list Z) : perm_closed (Rperm g).
Proof. intros a o1 o2 H Hp. exact (perm_trans (Permutation_sym Hp) H). Qed.

Definition Rsame {A} (o : list Z) : A -> list Z -> Prop := fun _ o' => Permutation o' o.
Definition Rfd {E} (o : list Z) : result Z E -> list Z -> Prop :=
  fun r o' => Permutation o' (match r with Ok n => n :: o | Err _ => o end).

(* the continuation is proved from the list the first part says it leaves, so the owned set
   stays a list written out in the goal *)
Lemma bal_seq {A B} (g1 : A -> list Z) (g2 : B -> list Z) o (p : prog A) (f : A -> prog B) :
  bal (Rperm g1) o p -> (forall a, bal (Rperm g2) (g1 a) (f a)) -> bal (Rperm g2) o (bind p f).
Proof.
  intros Hp Hf. eapply bal_bind; [exact Hp|]. intros a o' Ho'.
  eapply bal_perm; [apply perm_closed_Rperm|apply Hf|apply Permutation_sym, Ho'].
Qed.

Lemma bal_seqR {A B E} (g1 : result A E -> list Z) (g2 : result B E -> list Z) o
      (p : prog (result A E)) (f : A -> prog (result B E)) :
  bal (Rperm g1) o p -> (forall e, Permutation (g1 (Err e)) (g2 (Err e))) ->
  (forall a, bal (Rperm g2) (g1 (Ok a)) (f a)) -> bal (Rperm g2) o (bindR p f).
Proof.
  intros Hp He Hf. unfold bindR. eapply bal_seq; [exact Hp|]. intros [a|e]; [apply Hf|constructor; apply He].
Qed.

(* after a sequencing lemma a postcondition [Rsame o] shows as [Rperm (fun _ => o)], which
   [apply] does not match against a lemma stated with [Rsame]: this folds it back *)
Lemma bal_same {A} o oo (p : prog A) : bal (Rsame o) oo p -> bal (Rperm (fun _ => o)) oo p.
Proof. exact (fun H => H). Qed.

Lemma bal_seq_same {A B} (g : B -> list Z) o (p : prog A) (f : A -> prog B) :
  bal (Rsame o) o p -> (forall a, bal (Rperm g) o (f a)) -> bal (Rperm g) o (bind p f).
Proof. apply (bal_seq (fun _ => o)). Qed.

Lemma bal_seq_fd {B E} o1 (g : B -> list Z) o (p : prog (result Z E)) (f : result Z E -> prog B) :
  bal (Rfd o1) o p -> (forall r, bal (Rperm g) (match r with Ok n => n :: o1 | Err _ => o1 end) (f r)) ->
  bal (Rperm g) o (bind p f).
Proof. apply bal_seq. Qed.

Lemma bal_seqR_same {A B E} (g : result B E -> list Z) o (p : prog (result A E)) (f : A -> prog (result B E)) :
  bal (Rsame o) o p -> (forall e, Permutation o (g (Err e))) -> (forall a, bal (Rperm g) o (f a)) ->
  bal (Rperm g) o (bindR p f).
Proof. apply (bal_seqR (fun _ => o)). Qed.

Lemma bal_map_err {A E F} (g : E -> F) (R : result A E -> list Z -> Prop) (R' : result A F -> list Z -> Prop)
      oo (p : prog (result A E)) :
  (forall a o', R (Ok a) o' -> R' (Ok a) o') -> (forall e o', R (Err e) o' -> R' (Err (g e)) o') ->
  bal R oo p -> bal R' oo (map_err g p).
Proof.
  intros Hok Herr H. unfold map_err. eapply bal_bind; [exact H|].
  intros [a|e] o' Ho'; constructor; [apply Hok|apply Herr]; exact Ho'.
Qed.

Lemma bal_map_err_fd {E F} (g : E -> F) o oo (p : prog (result Z E)) :
  bal (Rfd o) oo p -> bal (Rfd o) oo (map_err g p).
Proof. apply bal_map_err; intros ? ? H; exact H. Qed.

Lemma bal_map_err_same {A E F} (g : E -> F) o oo (p : prog (result A E)) :
  bal (Rsame o) oo p -> bal (Rsame o) oo (map_err g p).
Proof. apply bal_map_err; intros ? ? H; exact H. Qed.

(* which calls open and which neither open nor close: to be kept in step with FdBalance.opens
   and step_owned, whose cases these two repeat (neutral_opens, opening_opens check it) *)
Definition neutral (c : call) : Prop :=
  match c with
  | Openat _ _ _ _ | Openat2 _ _ _ _ _ | DupCloexec _ | Fsopen _ _ | Fsmount _ _ _ | OpenTree _ _ _
  | Close _ => False
  | _ => True
  end.

Definition opening (c : call) : Prop :=
  match c with
  | Openat _ _ _ _ | Openat2 _ _ _ _ _ | DupCloexec _ | Fsopen _ _ | Fsmount _ _ _ | OpenTree _ _ _ => True
  | _ => False
  end.

Lemma neutral_opens c r : neutral c -> opens c r = [].
Proof. destruct c; intro H; try reflexivity; destruct H. Qed.

Lemma opening_opens c r : opening c -> opens c r = match as_fd r with Ok n => [n] | Err _ => [] end.
Proof. destruct c; intro H; try reflexivity; destruct H. Qed.

Lemma bal_neutral_call {A} (R : A -> list Z -> Prop) o c k :
  neutral c -> (forall r, bal R o (k r)) -> bal R o (Call c k).
Proof.
  intros Hn Hk. constructor.
  - intros fd ->. destruct Hn.
  - intros r _. rewrite step_owned_nonclose, (neutral_opens c r Hn); [apply Hk|]. intros fd ->. destruct Hn.
Qed.

Lemma neutral_calls_bal {A} (p : prog A) o : all_calls neutral p -> bal (Rsame o) o p.
Proof.
  intro H. induction H as [a|c k Hc Hk IH|s|]; [constructor; hnf; reflexivity| |constructor|constructor].
  apply bal_neutral_call; assumption.
Qed.

(* the new descriptor is not one the operation holds *)
Lemma bal_open_call {A} (R : A -> list Z -> Prop) o c k :
  opening c ->
  (forall r, match as_fd r with Ok n => ~ In n o -> bal R (n :: o) (k r) | Err _ => bal R o (k r) end) ->
  bal R o (Call c k).
Proof.
  intros Ho Hk. constructor.
  - intros fd ->. destruct Ho.
  - intros r Hf. specialize (Hk r). unfold fresh_for in Hf.
    rewrite step_owned_nonclose, (opening_opens c r Ho) in * by (intros fd ->; destruct Ho).
    destruct (as_fd r) as [n|e]; [apply Hk, Hf; left; reflexivity|exact Hk].
Qed.

Lemma bal_close (R : unit -> list Z -> Prop) fd o :
  In fd o -> R tt (remove_one fd o) -> bal R o (close fd).
Proof.
  intros Hin HR. constructor.
  - intros fd' E. injection E as <-. apply mem_in, Hin.
  - intros r _. constructor. exact HR.
Qed.

Lemma close_then_p {A} (g : A -> list Z) fd o o' (q : prog A) :
  Permutation o (fd :: o') -> bal (Rperm g) o' q -> bal (Rperm g) o (close fd ;;; q).
Proof.
  intros Hp Hq. eapply bal_bind.
  - apply (bal_close (Rsame o')); [|apply remove_one_cons_perm, Hp].
    eapply Permutation_in; [apply Permutation_sym, Hp|left; reflexivity].
  - intros u o2 Ho2. eapply bal_perm; [apply perm_closed_Rperm|exact Hq|apply Permutation_sym, Ho2].
Qed.

Lemma close_ret_p {A} (g : A -> list Z) fd o (a : A) :
  Permutation o (fd :: g a) -> bal (Rperm g) o (close fd ;;; Ret a).
Proof. intro Hp. eapply close_then_p; [exact Hp|]. constructor. hnf. reflexivity. Qed.

Lemma bal_ret_p {A} (g : A -> list Z) o (a : A) : Permutation o (g a) -> bal (Rperm g) o (Ret a).
Proof. intro H. constructor. exact H. Qed.

Lemma holding {A} (g1 g : A -> list Z) h o (p : prog A) :
  bal (Rperm g1) o p -> (forall a, Permutation (g1 a) (h :: g a)) ->
  bal (Rperm g) o (r <- p ;; close h ;;; Ret r).
Proof. intros Hp Hg. eapply bal_seq; [exact Hp|]. intro a. apply close_ret_p, Hg. Qed.

Lemma holding_fd {E} h o (p : prog (result Z E)) :
  bal (Rfd (h :: o)) (h :: o) p -> bal (Rfd o) (h :: o) (r <- p ;; close h ;;; Ret r).
Proof. intro Hp. eapply holding; [exact Hp|]. intros [fd|e]; [apply perm_swap|reflexivity]. Qed.

Lemma holding_same {A} h o (p : prog A) :
  bal (Rsame (h :: o)) (h :: o) p -> bal (Rsame o) (h :: o) (r <- p ;; close h ;;; Ret r).
Proof. intro Hp. eapply holding; [exact Hp|]. reflexivity. Qed.

Lemma frozen_call_neutral c : frozen_call c -> neutral c.
Proof. intros [->|[[n ->]|[n ->]]]; exact I. Qed.

Lemma frozen_bal fz fd o : bal (@Rsame unit o) o (frozen fz fd).
Proof. apply neutral_calls_bal. eapply ac_weaken; [apply frozen_call_neutral|apply frozen_calls]. Qed.

(* a failing wrapper only looks at its descriptors *)
Lemma fail1_bal {A} fz fd e o (R : result A N -> list Z -> Prop) :
  (forall o', Permutation o' o -> R (Err e) o') -> bal R o (@fail1 fz A fd e).
Proof. intro He. unfold fail1. eapply bal_bind; [apply frozen_bal|]. intros u o' Ho'. constructor. apply He, Ho'. Qed.

Lemma fail1_p {A} fz fd e o (g : result A N -> list Z) :
  Permutation o (g (Err e)) -> bal (Rperm g) o (@fail1 fz A fd e).
Proof. intro H. apply fail1_bal. intros o' Ho'. exact (perm_trans Ho' H). Qed.

Lemma fail2_p {A} fz fd1 fd2 e o (g : result A N -> list Z) :
  Permutation o (g (Err e)) -> bal (Rperm g) o (@fail2 fz A fd1 fd2 e).
Proof.
  intro H. unfold fail2. eapply bal_seq_same; [apply frozen_bal|]. intro.
  eapply bal_seq_same; [apply frozen_bal|]. intro. constructor. exact H.
Qed.

(* [auto with owned] closes the ends of a program: a result returned (after descriptors are
   closed, or none), a wrapper failing, a panic; the owned lists are compared by reflexivity
   or one swap *)
Create HintDb owned.
#[export] Hint Extern 1 (bal _ _ (Ret _)) => apply bal_ret_p : owned.

#[export] Hint Extern 2 (bal _ _ (close _ ;;; _)) => eapply close_then_p : owned.
#[export] Hint Extern 1 (bal _ _ (fail1 _ _ _)) => apply fail1_p : owned.
#[export] Hint Extern 1 (bal _ _ (fail2 _ _ _ _)) => apply fail2_p : owned.
#[export] Hint Extern 1 (bal _ _ (Panic _)) => constructor : owned.

#[export] Hint Resolve perm_swap : owned.

(* what an opening call hands out is new: not a number the operation holds *)
Definition Rnew {E} (o : list Z) : result Z E -> list Z -> Prop :=
  fun r o' => match r with Ok k => o' = k :: o /\ ~ In k o | Err _ => Permutation o' o end.

Lemma Rnew_Rfd {E} o (r : result Z E) o' : Rnew o r o' -> Rfd o r o'.
Proof. destruct r; [intros [-> _]; hnf; reflexivity|exact (fun H => H)]. Qed.

(* the two shapes in which the wrappers end: the answer decoded, FrozenFd on an error *)
Lemma open_tail_bal fz fd c o :
  opening c ->
  bal (Rnew o) o (Call c (fun r => match as_fd r with Ok n => Ret (Ok n) | Err e => fail1 fz fd e end)).
Proof.
  intro Hc. apply bal_open_call; [exact Hc|]. intro r. destruct (as_fd r) as [n|e].
  - intro Hn. constructor. split; [reflexivity|exact Hn].
  - apply fail1_bal. exact (fun _ H => H).
Qed.

Lemma dec_tail_bal {A} fz fd c (dec : resp -> result A N) o :
  neutral c ->
  bal (Rsame o) o (Call c (fun r => match dec r with Ok a => Ret (Ok a) | Err e => fail1 fz fd e end)).
Proof.
  intro Hc. apply bal_neutral_call; [exact Hc|]. intro r.
  destruct (dec r); auto with owned.
Qed.

Lemma w_openat_follow_new fz fd n fl m o : bal (Rnew o) o (w_openat_follow fz fd n fl m).
Proof.
  unfold w_openat_follow, rustix_path. apply bal_if; [constructor; hnf; reflexivity|].
  apply bal_if; [apply fail1_bal; exact (fun _ H => H)|]. apply open_tail_bal. exact I.
Qed.

Lemma w_openat_new_bal fz fd n fl m o : bal (Rnew o) o (w_openat fz fd n fl m).
Proof. apply w_openat_follow_new. Qed.

Lemma w_openat_follow_bal fz fd n fl m o : bal (Rfd o) o (w_openat_follow fz fd n fl m).
Proof. eapply bal_weaken; [apply w_openat_follow_new|]. intros a o'. apply Rnew_Rfd. Qed.

Lemma w_openat_bal fz fd n fl m o : bal (Rfd o) o (w_openat fz fd n fl m).
Proof. apply w_openat_follow_bal. Qed.

Lemma w_openat2_bal fz fd p fl m rs o : bal (Rfd o) o (w_openat2 fz fd p fl m rs).
Proof.
  unfold w_openat2. apply bal_if; [auto with owned|].
  apply bal_if; [auto with owned|].
  eapply bal_weaken; [apply open_tail_bal; exact I|]. intros a o'. apply Rnew_Rfd.
Qed.

Lemma w_fsmount_bal fz sfd fl at_ o : bal (Rfd o) o (w_fsmount fz sfd fl at_).
Proof.
  unfold w_fsmount. apply bal_if; [auto with owned|].
  eapply bal_weaken; [apply open_tail_bal; exact I|]. intros a o'. apply Rnew_Rfd.
Qed.

Lemma w_open_tree_bal fz fd p fl o : bal (Rfd o) o (w_open_tree fz fd p fl).
Proof.
  unfold w_open_tree, rustix_path. apply bal_if; [auto with owned|].
  apply bal_if; [auto with owned|].
  eapply bal_weaken; [apply open_tail_bal; exact I|]. intros a o'. apply Rnew_Rfd.
Qed.

Lemma open_ret_bal c o : opening c -> bal (@Rnew N o) o (Call c (fun r => Ret (as_fd r))).
Proof.
  intro Hc. apply bal_open_call; [exact Hc|]. intro r. destruct (as_fd r) as [n|e].
  - intro Hn. constructor. split; [reflexivity|exact Hn].
  - constructor. hnf. reflexivity.
Qed.

Lemma dup_new_bal fd o : bal (@Rnew N o) o (dup_cloexec fd).
Proof. apply open_ret_bal. exact I. Qed.

Lemma dup_cloexec_bal fd o : bal (@Rfd N o) o (dup_cloexec fd).
Proof. eapply bal_weaken; [apply dup_new_bal|]. intros a o'. apply Rnew_Rfd. Qed.

Lemma w_fsopen_bal name fl o : bal (@Rfd N o) o (w_fsopen name fl).
Proof. eapply bal_weaken; [apply open_ret_bal; exact I|]. intros a o'. apply Rnew_Rfd. Qed.

Lemma simple1_bal {A} fz fd path c (dec : resp -> result A N) o :
  neutral c -> bal (Rsame o) o (simple1 fz fd path c dec).
Proof.
  intro Hn. unfold simple1, rustix_path. apply bal_if; [auto with owned|].
  apply bal_if; [auto with owned|apply dec_tail_bal, Hn].
Qed.

Lemma w_readlinkat_bal fz fd p o : bal (Rsame o) o (w_readlinkat fz fd p).
Proof.
  unfold w_readlinkat, rustix_path. apply bal_if; [auto with owned|].
  apply bal_if; [auto with owned|].
  apply bal_neutral_call; [exact I|]. intro r.
  destruct (as_bytes r); [|auto with owned].
  apply bal_if; [auto with owned|auto with owned].
Qed.

Lemma w_mkdirat_bal fz fd n m o : bal (Rsame o) o (w_mkdirat fz fd n m).
Proof. apply simple1_bal. exact I. Qed.
Lemma w_mknodat_bal fz fd n m d o : bal (Rsame o) o (w_mknodat fz fd n m d).
Proof. apply simple1_bal. exact I. Qed.
Lemma w_unlinkat_bal fz fd n a o : bal (Rsame o) o (w_unlinkat fz fd n a).
Proof. apply simple1_bal. exact I. Qed.
Lemma w_fstatat_bal fz fd n o : bal (Rsame o) o (w_fstatat fz fd n).
Proof. apply simple1_bal. exact I. Qed.
Lemma w_statx_bal fz fd n mk o : bal (Rsame o) o (w_statx fz fd n mk).
Proof. apply simple1_bal. exact I. Qed.

Lemma w_fstatfs_bal fz fd o : bal (Rsame o) o (w_fstatfs fz fd).
Proof.
  unfold w_fstatfs. apply bal_if; [auto with owned|apply dec_tail_bal; exact I].
Qed.

Lemma w_symlinkat_bal fz t fd n o : bal (Rsame o) o (w_symlinkat fz t fd n).
Proof.
  unfold w_symlinkat. apply bal_if; [auto with owned|].
  apply bal_if; [auto with owned|apply dec_tail_bal; exact I].
Qed.

Lemma w_fsconfig_set_string_bal fz sfd k v o : bal (Rsame o) o (w_fsconfig_set_string fz sfd k v).
Proof.
  unfold w_fsconfig_set_string.
  apply bal_if; [auto with owned|apply dec_tail_bal; exact I].
Qed.

Lemma w_fsconfig_create_bal fz sfd o : bal (Rsame o) o (w_fsconfig_create fz sfd).
Proof.
  unfold w_fsconfig_create.
  apply bal_if; [auto with owned|apply dec_tail_bal; exact I].
Qed.

Lemma two_fd_bal fz ofd on nfd nn c o : neutral c -> bal (Rsame o) o (two_fd fz ofd on nfd nn c).
Proof.
  intro Hn. unfold two_fd.
  apply bal_if; [auto with owned|].
  apply bal_if; [auto with owned|].
  apply bal_if; [auto with owned|].
  apply bal_neutral_call; [exact Hn|]. intro r.
  destruct (as_unit r); [auto with owned|auto with owned].
Qed.

Lemma w_linkat_bal fz ofd on nfd nn a o : bal (Rsame o) o (w_linkat fz ofd on nfd nn a).
Proof. apply two_fd_bal. exact I. Qed.
Lemma w_renameat2_bal fz ofd on nfd nn fl o : bal (Rsame o) o (w_renameat2 fz ofd on nfd nn fl).
Proof. unfold w_renameat2, w_renameat. apply bal_if; apply two_fd_bal; exact I. Qed.

(* ---- procfs.rs / resolvers/procfs.rs -------------------------------------------- *)

Section ProcfsBal.
Variable fz : nat.
Variable cfg : bool.

Lemma fetch_mnt_id_bal fd n o : bal (Rsame o) o (fetch_mnt_id fz fd n).
Proof.
  unfold fetch_mnt_id. eapply bal_seq_same; [apply w_statx_bal|].
  intros [[mask id]|e]; [auto with owned|].
  apply bal_if; auto with owned.
Qed.

Lemma verify_same_mnt_bal m fd n o : bal (Rsame o) o (verify_same_mnt fz m fd n).
Proof.
  unfold verify_same_mnt. apply bal_seqR_same; [apply fetch_mnt_id_bal|reflexivity|].
  intro mnt. apply bal_if; auto with owned.
Qed.

Lemma verify_is_procfs_bal fd o : bal (Rsame o) o (verify_is_procfs fz fd).
Proof.
  unfold verify_is_procfs, os. apply bal_seqR_same; [apply bal_map_err_same, w_fstatfs_bal|reflexivity|].
  intro t. apply bal_if; auto with owned.
Qed.

Lemma verify_same_procfs_mnt_bal h fd o : bal (Rsame o) o (verify_same_procfs_mnt fz h fd).
Proof.
  unfold verify_same_procfs_mnt. apply bal_seqR_same; [apply verify_same_mnt_bal|reflexivity|].
  intro. apply bal_same, verify_is_procfs_bal.
Qed.

Lemma openat2_retry_bal n root p fl rs o : bal (Rfd o) o (openat2_retry fz n root p fl rs).
Proof.
  induction n as [|m IH]; cbn [openat2_retry]; [auto with owned|].
  eapply bal_seq; [apply w_openat2_bal|]. intros [fd|e]; [auto with owned|].
  apply bal_if; [exact IH|auto with owned].
Qed.

Lemma openat2_resolve_bal root p fl rf o : bal (Rfd o) o (openat2_resolve fz cfg root p fl rf).
Proof.
  unfold openat2_resolve, os. apply bal_if; [auto with owned|].
  apply bal_if; [apply bal_map_err_fd, w_openat2_bal|apply openat2_retry_bal].
Qed.

(* the walk owns [cur] on entry and hands on exactly one descriptor (or none) *)
Lemma pwalk_body_bal m fl rf follow o :
  (forall go, follow = Some go -> forall cur cs, bal (Rfd o) (cur :: o) (go cur cs)) ->
  forall cs cur, bal (Rfd o) (cur :: o) (pwalk_body fz m fl rf follow cur cs).
Proof.
  intros Hgo cs. induction cs as [|part0 rest IH]; intro cur; cbn [pwalk_body]; [auto with owned|].
  set (part := if is_nil part0 then [DOT] else part0).
  apply bal_if; [auto with owned|].
  unfold os. eapply bal_seq; [apply bal_map_err_fd, w_openat_bal|].
  intros [next|e]; [|auto with owned].
  eapply bal_seq_same; [apply verify_same_mnt_bal|]. intros [u|e]; [|auto with owned].
  eapply bal_seq_same; [apply bal_map_err_same, w_fstatat_bal|]. intros [meta|e]; [|auto with owned].
  (* what follows the "last component" block, reached from two places *)
  set (cont := if negb (is_symlink_mode (st_mode meta)) then _ else _).
  assert (Hcont : bal (@Rfd ekind o) (next :: cur :: o) cont).
  { subst cont. apply bal_if.
    - eapply close_then_p; [apply perm_swap|apply IH].
    - apply bal_if; [auto with owned|].
      destruct follow as [go|]; [|auto with owned].
      eapply bal_seq_same; [apply bal_map_err_same, w_readlinkat_bal|].
      intros [target|e]; [|auto with owned].
      apply bal_if; [auto with owned|].
      eapply close_then_p; [reflexivity|]. eapply Hgo. reflexivity. }
  apply bal_if; [|exact Hcont].
  eapply bal_seq; [apply w_openat_bal|]. intros [final|e].
  - eapply bal_seq_same; [apply verify_same_mnt_bal|]. intros [u2|e]; auto with owned.
  - apply bal_if; [auto with owned|exact Hcont].
Qed.

Lemma pwalk_bal budget m fl rf o : forall cur cs, bal (Rfd o) (cur :: o) (pwalk fz budget m fl rf cur cs).
Proof.
  apply (pwalk_budget_ind fz m fl rf (fun go => forall cur cs, bal (Rfd o) (cur :: o) (go cur cs))).
  intros follow Hgo cur cs. apply pwalk_body_bal, Hgo.
Qed.

Lemma opath_resolve_bal root p fl rf o : bal (Rfd o) o (opath_resolve fz root p fl rf).
Proof.
  unfold opath_resolve, os. apply bal_seqR_same; [apply fetch_mnt_id_bal|reflexivity|]. intro m.
  eapply bal_seqR; [apply bal_map_err_fd, dup_cloexec_bal|reflexivity|]. intro cur. apply pwalk_bal.
Qed.

Lemma presolve_bal use root p fl rf o : bal (Rfd o) o (presolve fz cfg use root p fl rf).
Proof.
  unfold presolve. apply bal_if; [auto with owned|].
  destruct use; [apply openat2_resolve_bal|apply opath_resolve_bal].
Qed.

Lemma into_path_bal root base o : bal (Rsame o) o (into_path fz root base).
Proof.
  destruct base; cbn [into_path]; auto with owned.
  apply bal_neutral_call; [exact I|]. intro rt.
  generalize (thread_self_cands (as_num rt)). intro cands.
  induction cands as [|c rest IH]; [constructor|].
  eapply bal_seq_same; [apply w_fstatat_bal|].
  intros [s|e]; [auto with owned|exact IH].
Qed.

(* a constructed handle owns exactly its descriptor *)
Definition Rph {E} (o : list Z) : result phandle E -> list Z -> Prop :=
  fun r o' => Permutation o' (match r with Ok h => ph_fd h :: o | Err _ => o end).

Lemma try_from_fd_bal inner o : bal (Rph o) (inner :: o) (try_from_fd fz cfg inner).
Proof.
  unfold try_from_fd.
  eapply bal_seq_same; [apply verify_is_procfs_bal|]. intros [u|e]; [|auto with owned].
  eapply bal_seq_same; [apply w_fstatat_bal|]. intros [meta|e].
  2: { destruct TRY_FROM_FD_FSTAT_PANICS; [constructor|auto with owned]. }
  apply bal_if; [auto with owned|].
  eapply bal_seq_same; [apply fetch_mnt_id_bal|]. intros [mnt|e]; [|auto with owned].
  generalize SUBSET_PROBES. intro ps. induction ps as [|p rest IH]; [auto with owned|].
  apply bal_neutral_call; [exact I|]. intro r.
  destruct (as_unit r); [exact IH|auto with owned].
Qed.

Lemma new_fsopen_bal subset o : bal (Rph o) o (new_fsopen fz cfg subset).
Proof.
  unfold new_fsopen, os. eapply bal_seqR; [apply bal_map_err_fd, w_fsopen_bal|reflexivity|].
  intro sfd.
  eapply bal_seq_same.
  { destruct subset; [|auto with owned].
    eapply bal_seq_same; [apply w_fsconfig_set_string_bal|]. intro.
    eapply bal_seq_same; [apply w_fsconfig_set_string_bal|]. intro. auto with owned. }
  intro. eapply bal_seq_same; [apply bal_map_err_same, w_fsconfig_create_bal|].
  intros [u|e]; [|auto with owned].
  eapply bal_seq; [apply bal_map_err_fd, w_fsmount_bal|].
  intros [mfd|e]; [|auto with owned].
  eapply holding; [apply try_from_fd_bal|]. intros [h|e]; [apply perm_swap|reflexivity].
Qed.

Lemma new_open_tree_bal fl o : bal (Rph o) o (new_open_tree fz cfg fl).
Proof.
  unfold new_open_tree, os. eapply bal_seqR; [apply bal_map_err_fd, w_open_tree_bal|reflexivity|].
  intro fd. apply try_from_fd_bal.
Qed.

Lemma new_unsafe_open_bal o : bal (Rph o) o (new_unsafe_open fz cfg).
Proof.
  unfold new_unsafe_open, os. eapply bal_seqR; [apply bal_map_err_fd, w_openat_bal|reflexivity|].
  intro fd. apply try_from_fd_bal.
Qed.

Lemma or_else_bal o (p q : prog (result phandle ekind)) :
  bal (Rph o) o p -> bal (Rph o) o q -> bal (Rph o) o (or_else p q).
Proof.
  intros Hp Hq. unfold or_else. eapply bal_seq; [exact Hp|].
  intros [h|e]; [auto with owned|exact Hq].
Qed.

Lemma procfs_new_with_bal subset fl o :
  bal (Rph o) o (or_else (or_else (new_fsopen fz cfg subset) (new_open_tree fz cfg fl)) (new_unsafe_open fz cfg)).
Proof.
  apply or_else_bal; [|apply new_unsafe_open_bal].
  apply or_else_bal; [apply new_fsopen_bal|apply new_open_tree_bal].
Qed.

Lemma procfs_new_unmasked_bal o : bal (Rph o) o (procfs_new_unmasked fz cfg).
Proof. apply procfs_new_with_bal. Qed.

Lemma procfs_new_bal o : bal (Rph o) o (procfs_new fz cfg).
Proof. apply procfs_new_with_bal. Qed.

Lemma open_base_bal h base o : bal (Rfd o) o (open_base fz cfg h base).
Proof.
  unfold open_base. eapply bal_seq_same; [apply into_path_bal|]. intro p.
  eapply bal_seqR; [apply presolve_bal|reflexivity|]. intro fd.
  eapply bal_seq_same; [apply verify_same_procfs_mnt_bal|].
  intros [u|e]; [auto with owned|auto with owned].
Qed.

Lemma popen_bal fuel : forall h base sub fl o, bal (Rfd o) o (popen fz cfg fuel h base sub fl).
Proof.
  induction fuel as [|f IH]; intros h base sub fl o; cbn [popen]; [constructor|].
  eapply bal_seqR; [apply open_base_bal|reflexivity|]. intro basedir.
  (* everything below runs owning basedir :: o; each stage hands on a descriptor or none *)
  eapply bal_seq; [apply presolve_bal|]. intro r.
  eapply (bal_seq_fd (basedir :: o)).
  { destruct r as [fd|e]; [|auto with owned].
    eapply bal_seq_same; [apply verify_same_procfs_mnt_bal|].
    intros [u|e]; [auto with owned|auto with owned]. }
  intro r2. eapply (bal_seq_fd (basedir :: o)).
  { destruct r2 as [fd|e]; [auto with owned|].
    apply bal_if; [|auto with owned].
    eapply bal_seq; [apply procfs_new_unmasked_bal|]. intros [h'|e']; [|auto with owned].
    apply bal_if; [auto with owned|].
    apply holding_fd, IH. }
  intros [fd|e]; auto with owned.
Qed.

Lemma preadlink_bal fuel h base sub o : bal (Rsame o) o (preadlink fz cfg fuel h base sub).
Proof.
  unfold preadlink, os. eapply bal_seqR; [apply popen_bal|reflexivity|]. intro link.
  apply bal_same, holding_same, bal_map_err_same, w_readlinkat_bal.
Qed.

Lemma popen_follow_bal fuel h base sub fl o : bal (Rfd o) o (popen_follow fz cfg fuel h base sub fl).
Proof.
  unfold popen_follow. apply bal_if; [auto with owned|].
  destruct (path_strip_trailing_slash sub) as [sub' ts].
  apply bal_if; [auto with owned|].
  eapply bal_seq_same; [apply preadlink_bal|].
  intros [bs|e]; [|apply bal_if; [auto with owned|apply popen_bal]].
  destruct (path_split sub') as [[[parent [trailing|]]|e]|]; auto with owned.
  eapply bal_seqR; [apply popen_bal|reflexivity|]. intro pfd.
  eapply bal_seq_same; [apply fetch_mnt_id_bal|]. intros [pm|e]; [|auto with owned].
  eapply bal_seq_same; [apply verify_same_mnt_bal|]. intros [u|e]; [|auto with owned].
  unfold os. apply holding_fd, bal_map_err_fd, w_openat_follow_bal.
Qed.

Lemma reopen_bal fuel gh fd fl o : bal (Rfd o) o (reopen fz cfg fuel gh fd fl).
Proof.
  unfold reopen, os. apply bal_seqR_same; [apply bal_map_err_same, w_fstatat_bal|reflexivity|].
  intro meta. apply bal_if; [auto with owned|].
  destruct (proc_subpath fd); [apply popen_follow_bal|auto with owned].
Qed.

Lemma as_unsafe_path_bal fuel gh fd o : bal (Rsame o) o (as_unsafe_path fz cfg fuel gh fd).
Proof.
  unfold as_unsafe_path. destruct (proc_subpath fd); [apply preadlink_bal|auto with owned].
Qed.

Lemma is_magiclink_filesystem_bal fd o : bal (Rsame o) o (is_magiclink_filesystem fz fd).
Proof.
  unfold is_magiclink_filesystem, os.
  apply bal_seqR_same; [apply bal_map_err_same, w_fstatfs_bal|reflexivity|].
  intro. auto with owned.
Qed.

End ProcfsBal.
