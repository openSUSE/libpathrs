(* ErrTableProofs.v -- C16: the error-id table over all histories. *)
From PV Require Import ErrTable.

Section Proofs.
Variable E : Type.
Notation table := (table E).

Lemma tlookup_tremove_same id (t : table) : tlookup E id (tremove E id t) = None.
Proof.
  induction t as [|[k e] r IH]; cbn; [reflexivity|].
  destruct (Z.eqb_spec k id); [exact IH|]. cbn. destruct (Z.eqb_spec k id); [contradiction|exact IH].
Qed.

Lemma tlookup_tremove_other id k (t : table) : k <> id -> tlookup E k (tremove E id t) = tlookup E k t.
Proof.
  intro Hne. induction t as [|[k' e] r IH]; cbn; [reflexivity|].
  destruct (Z.eqb_spec k' id) as [->|Hk].
  - destruct (Z.eqb_spec id k); [congruence|exact IH].
  - cbn. destruct (Z.eqb_spec k' k); [reflexivity|exact IH].
Qed.

Lemma store_spec draws e (t : table) id t' :
  store E draws e t = Some (id, t') ->
  In id draws /\ tlookup E id t = None /\ t' = (id, e) :: t.
Proof.
  revert t'. induction draws as [|d rest IH]; intros t' H; cbn in H; [discriminate|].
  destruct (tlookup E d t) eqn:El.
  - destruct (IH _ H) as (Hin & Hv & Ht). split; [right; exact Hin|split; assumption].
  - inversion H; subst. split; [left; reflexivity|split; [exact El|reflexivity]].
Qed.

(* if some draw is vacant the loop terminates with an id (no RStuck) *)
Lemma store_progress draws e (t : table) :
  (exists d, In d draws /\ tlookup E d t = None) -> exists id t', store E draws e t = Some (id, t').
Proof.
  intros (d & Hin & Hv). induction draws as [|x rest IH]; [destruct Hin|].
  cbn. destruct (tlookup E x t) eqn:El.
  - destruct Hin as [->|Hin]; [congruence|]. apply IH, Hin.
  - eauto.
Qed.

Lemma step_stored draws e (t : table) t' id :
  step E t (OStore E draws e) = (t', RStored E id) ->
  In id draws /\ tlookup E id t = None /\ t' = (id, e) :: t.
Proof.
  cbn. destruct (store E draws e t) as [[id' t'']|] eqn:Es; [|discriminate].
  intro H. inversion H; subst. exact (store_spec _ _ _ _ _ Es).
Qed.

Lemma step_keeps id e (t : table) o :
  match o with OTake _ i => i <> id | OStore _ _ _ => True end ->
  tlookup E id t = Some e -> tlookup E id (fst (step E t o)) = Some e.
Proof.
  intros Ho H1. destruct o as [dr e'|i]; cbn.
  - destruct (store E dr e' t) as [[id' t']|] eqn:Es; cbn [fst]; [|exact H1].
    destruct (store_spec _ _ _ _ _ Es) as (_ & Hv & ->). cbn.
    destruct (Z.eqb_spec id' id) as [ -> |_]; [congruence|exact H1].
  - rewrite tlookup_tremove_other; [exact H1|]. intro; subst; apply Ho; reflexivity.
Qed.

(* the generator draws from [ERR_ID_MIN, ERR_ID_MAX] (gen_range in capi/error.rs) *)
Definition draws_ok (o : op E) : Prop :=
  match o with OStore _ draws _ => Forall (fun d => in_range d = true) draws | OTake _ _ => True end.

Lemma in_range_not_errno d : in_range d = true -> d < -4095 /\ INT_MIN <= d.
Proof.
  unfold in_range. intro H. apply andb_true_iff in H as [H1 H2].
  apply Z.leb_le in H1, H2. change ERR_ID_MIN with INT_MIN in H1.
  assert (ERR_ID_MAX <= -4096) by (vm_compute; discriminate). lia.
Qed.

End Proofs.
