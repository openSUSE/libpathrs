(* DynMkdirAny.v -- C12: mkdir_all for either resolver, given what its partial lookup returned.
   The resolver [rs] is free (rs_kernel rs = false: emulated walk, true: openat2); the configuration is fixed:
   openat2 is available (cfg = true) and the procfs handle uses it (ph_openat2 gh = true), as C09's re-open needs.
   The end-to-end theorem of DynMkdirAll is for the kernel resolver because only there the partial lookup is
   characterised by a theorem ([run_k_resolve_partial]).  Everything after the lookup does not depend on the
   resolver: whatever [r_resolve_partial] returned on the static kernel (a handle on a directory [o] and the
   unresolved rest, error ENOENT), mkdir_all is re-open, then mk_spec from [o] along the rest.
   For the emulated resolver the lookup's result is tied by T3 (executed against the library) and C04's
   differential, not proved. *)
From PV Require Import Dyn StaticBal DynMkdir DynMkdirAll.

Theorem mkdir_all_given_lookup s rp fz pfuel gh ps rs t root path mode t1 h o remaining exp :
  fz <> 0%nat -> closed2 s -> ph_mnt gh = Some PROC_MNT -> ph_openat2 gh = true ->
  N.ldiff mode MKDIR_ALL_MASK1 = 0 -> N.ldiff mode MKDIR_ALL_MASK2 = 0 ->
  run s rp t (r_resolve_partial fz true (S pfuel) gh ps rs root path false) =
    Done t1 (Ok (match remaining with None => Complete h | Some rm => Partial h rm (OsError ENOENT) end)) ->
  tget t1 (ph_fd gh) = Some (PB s) -> tget t1 h = Some o -> (o < PB s)%nat ->
  is_dir s o = true -> find_path s o = Some exp -> N.leb READLINK_BUF (N.of_nat (length (render rp exp))) = false ->
  existsb is_dotdot (parts_of remaining) = false -> (forall x, remaining = Some x -> has_nul x = false) ->
  exists t',
    match snd (mk_spec s o (parts_of remaining)) with
    | inl c => exists fd,
        Dyn.drun rp {| ds := s; dt := t; dseen := [] |} (root_mkdir_all fz true (S pfuel) gh ps rs root path mode) =
          DDone {| ds := fst (mk_spec s o (parts_of remaining)); dt := t'; dseen := [] |} (Ok fd) /\ tget t' fd = Some c /\
        (forall x, indom t' x -> x = fd \/ (indom t1 x /\ x <> h))
    | inr e =>
        Dyn.drun rp {| ds := s; dt := t; dseen := [] |} (root_mkdir_all fz true (S pfuel) gh ps rs root path mode) =
          DDone {| ds := fst (mk_spec s o (parts_of remaining)); dt := t'; dseen := [] |} (Err (OsError e)) /\
        (forall x, indom t' x -> indom t1 x /\ x <> h)
    end.
Proof.
  intros Hfz Hc2 Hmnt Ho2 Hm1 Hm2 Hlook Hproc1 Hh Holt Hdir Hpath Hshort Hdd Hnulr.
  destruct (mkdir_all_after_lookup s rp fz pfuel gh ps rs Hfz Hmnt Ho2 t root path mode t1 h o remaining exp
              Hm1 Hm2 Hlook Hproc1 Hh Holt Hdir Hpath Hshort Hdd) as (nfd & Hcur & Hrun0).
  destruct (mk_spec s o (parts_of remaining)) as [s' r] eqn:E. cbn [fst snd].
  destruct (mk_parts_run rp fz Hfz mode _ s _ nfd o s' r Hc2 Hcur Holt (parts_plain remaining Hnulr Hdd) E) as (t' & _ & Hres).
  exists t'. rewrite Hrun0. destruct r as [c|e].
  - destruct Hres as (fd & Hrun & Hfd & _ & Hdom & _). exists fd. split; [exact Hrun|]. split; [exact Hfd|].
    intros x Hx. destruct (Hdom x Hx) as [ -> |[Hin Hxn]]; [left; reflexivity|right; exact (indom_del_cons _ _ _ _ _ Hin Hxn)].
  - destruct Hres as (Hrun & Hdom). split; [exact Hrun|].
    intros x Hx. destruct (Hdom x Hx) as [Hin Hxn]. exact (indom_del_cons _ _ _ _ _ Hin Hxn).
Qed.
