(* StaticBackends.v -- C04: the kernel backend on the static kernel.  openat2::resolve is
   one openat2(RESOLVE_IN_ROOT) call, whose answer the static kernel takes from [kwalk]
   (props/C04.v sets it beside the emulated backend, whose program computes [ewalk]). *)
From PV Require Import Static StaticProofs StaticProcfs RootM BitsProofs.

Section KB.
Variable s : fs.
Variable rp : bytes.
Variable fz : nat.
Hypothesis Hfz : fz <> 0%nat.
Hypothesis Hclosed : closed s.
Notation run := (run s rp).

(* the first answer that is neither EAGAIN nor ENOSYS ends the retry loop, whatever the count *)
Lemma run_k_loop_ok m t t' root path oflags res fd :
  run t (w_openat2 fz root path oflags 0 res) = Done t' (Ok fd) ->
  run t (k_resolve_loop fz (S m) root path oflags res) = Done t' (Ok fd).
Proof. intro H. cbn [k_resolve_loop]. rewrite (run_bind s rp), H. reflexivity. Qed.

Lemma run_k_loop_err m t t' root path oflags res e :
  run t (w_openat2 fz root path oflags 0 res) = Done t' (Err e) -> N.eqb e ENOSYS = false -> N.eqb e EAGAIN = false ->
  run t (k_resolve_loop fz (S m) root path oflags res) = Done t' (Err (OsError e)).
Proof. intros H H1 H2. cbn [k_resolve_loop]. rewrite (run_bind s rp), H. cbn [Static.run]. rewrite H1, H2. reflexivity. Qed.

Lemma walk_errno_plain e : FSProofs.walk_errno e -> N.eqb e ENOSYS = false /\ N.eqb e EAGAIN = false.
Proof. intros [ -> | [ -> | [ -> | -> ] ] ]; split; reflexivity. Qed.

(* openat2::resolve on the static kernel: the kernel's walk, one call *)
Theorem run_k_resolve t root path rflags nofollow :
  tget t root = Some ROOT -> has_nul path = false ->
  match FSModel.kwalk s path nofollow (has (N.lor OPENAT2_RESOLVE_RESOLVE rflags) RESOLVE_NO_SYMLINKS) with
  | FSModel.WOk o => run t (k_resolve fz true root path rflags nofollow) = Done ((fresh t, o) :: t) (Ok (fresh t))
  | FSModel.WErr n => run t (k_resolve fz true root path rflags nofollow) = Done t (Err (OsError n))
  | FSModel.WBudget => run t (k_resolve fz true root path rflags nofollow) = Done t (Err (OsError ELOOP))
  end.
Proof.
  intros Hroot Hnul. unfold k_resolve. cbn [negb].
  set (oflags := if nofollow then _ else _). set (res := N.lor OPENAT2_RESOLVE_RESOLVE rflags).
  assert (Hnf : has (openat2_flags oflags) O_NOFOLLOW = nofollow) by (unfold oflags; destruct nofollow; reflexivity).
  assert (Hop : has (openat2_flags oflags) O_PATH = true) by (unfold oflags; destruct nofollow; reflexivity).
  assert (Hir : has res RESOLVE_IN_ROOT = true) by (apply has_lor_l; reflexivity).
  pose proof (run_w_openat2_sem s rp fz Hfz t root _ path oflags res Hroot Hnul) as Hw.
  pose proof (sem_openat2_root s rp t root path _ 0 res (proj1 Hclosed) Hroot Hir Hop) as Hs. rewrite Hnf in Hs.
  (* the retry count matters only in that it is not zero *)
  change (N.to_nat OPENAT2_RETRIES) with (S 15).
  destruct (FSModel.kwalk s path nofollow (has res RESOLVE_NO_SYMLINKS)) as [o|n|] eqn:Ek.
  - rewrite (answer_new s rp t _ o Hs), as_fd_fresh in Hw. apply run_k_loop_ok, Hw.
  - rewrite (answer_ret s rp t _ _ Hs) in Hw. apply run_k_loop_err; [exact Hw|apply walk_errno_plain, (FSProofs.kwalk_errno _ _ _ _ _ Ek) ..].
  - rewrite (answer_ret s rp t _ _ Hs) in Hw. apply run_k_loop_err; [exact Hw|reflexivity ..].
Qed.

End KB.
