(* DynEffects.v -- C14, the full functional statement on the dynamic kernel (theories/Dyn.v):
   executing a single-entry Root operation ends in exactly the state that the corresponding
   *at call produces when applied to (the object the in-root walk of the parent path ends on,
   path_split's last component): the tree is [create_sem / unlink_sem / link_sem / rename_sem /
   creat_sem] of the old tree, or -- on an error -- the old tree itself with that errno; the
   descriptor table is what it was (the parent descriptor is closed again); nothing else.
   Here: what "the parent lookup succeeded" means ([parent_ok]), that each backend establishes it
   (the emulated one through C01's refinement and C11's balance, carried over by the bridge
   DynProofs.drun_static; the kernel one by one openat2), and the two general theorems -- one
   parent lookup, or two, then one effect call -- of which every operation is an instance
   (props/C14.v). *)
From PV Require Import Dyn StaticProofs StaticProcfs StaticBal EffectProofs StaticEffects StaticBackends DynProofs.

Lemma kwalk_q_lt s nf nosym : closed s -> forall budget cur cs o,
  (cur < PB s)%nat -> FSModel.kwalk_q s nf nosym budget cur cs = FSModel.WOk o -> (o < PB s)%nat.
Proof.
  intros (H0 & Hlk & Hpar) budget cur cs o Hcur H.
  pose proof (FSProofs.kwalk_q_at s (fun x => (x < PB s)%nat) nf nosym H0 (fun d n c _ => Hlk d n c) (fun c Hc _ _ => Hpar c Hc)
                budget cur cs Hcur) as Hr.
  rewrite H in Hr. exact Hr.
Qed.

Lemma kwalk_lt s p nf nosym o : closed s -> FSModel.kwalk s p nf nosym = FSModel.WOk o -> (o < PB s)%nat.
Proof.
  intros Hc H. unfold FSModel.kwalk in H. destruct (is_nil p); [discriminate|].
  eapply kwalk_q_lt; [exact Hc| |exact H]. apply Hc.
Qed.

Lemma ewalk_lt s df p nf nosym o : closed s -> FSProofs.wf s df -> FSModel.ewalk s p nf nosym = FSModel.WOk o -> (o < PB s)%nat.
Proof.
  intros Hc Hwf H. unfold FSModel.ewalk in H. destruct (EMPTY_PATH_IS_ENOENT && is_nil p); [discriminate|].
  rewrite (FSProofs.ewalk_q_kwalk_q s df Hwf) in H by apply (FSProofs.inv_root s df Hwf).
  eapply kwalk_q_lt; [exact Hc| |exact H]. apply Hc.
Qed.

Lemma tdel_reloc pb pb' t fd : tdel (reloc pb pb' t) fd = reloc pb pb' (tdel t fd).
Proof.
  unfold reloc, tdel. induction t as [|[f o] t IH]; cbn [map filter fst snd]; [reflexivity|].
  destruct (negb (Z.eqb f fd)); cbn [map fst snd]; rewrite IH; reflexivity.
Qed.

Section OPS.
Variable s : fs.
Variable rp : bytes.
Variables fz pfuel : nat.
Variable o2 : bool.
Variable gh : phandle.
Variable ps : N.
Variable rs : resolver.
Hypothesis Hfz : fz <> 0%nat.

Notation drun := (drun rp).
Notation st_of t := {| ds := s; dt := t; dseen := [] |}.

(* the parent lookup of [path] from table [t]: ends with [dir] open on [o], everything else as it was *)
Definition parent_ok (t : fdt) (root : Z) (path : bytes) (t1 : fdt) (dir : Z) (name : bytes) (o : nat) : Prop :=
  run s rp t (parent_and_name fz o2 pfuel gh ps rs root path) = Done t1 (Ok (dir, name)) /\
  tget t1 dir = Some o /\ (o < PB s)%nat /\
  (forall x, indom t x -> tfind t1 x = tfind t x) /\
  (forall x, indom t1 x -> indom t x \/ x = dir).

Lemma drun_parent {B} (K : Z * bytes -> prog (result B ekind)) t root path t1 dir name o :
  parent_ok t root path t1 dir name o ->
  drun (st_of t) (dn <-? parent_and_name fz o2 pfuel gh ps rs root path ;; K dn) = drun (st_of t1) (K (dir, name)).
Proof.
  intros (Hrun & _). rewrite drun_bindR.
  rewrite (drun_static rp _ (parent_and_name_ne fz o2 pfuel gh ps rs root path) s t t1 _ Hrun). reflexivity.
Qed.

(* one parent lookup, one effect call [w] on (the directory it ended on, the last component), the directory closed again:
   create (mkdirat, mknodat, symlinkat) and remove_inode (unlinkat) *)
Theorem one_parent_effect (w : Z -> bytes -> prog (result unit N)) E t root path t1 dir name o :
  parent_ok t root path t1 dir name o ->
  (tget t1 dir = Some o -> (o < NPB s)%nat -> drun (st_of t1) (w dir name) = eff_unit s t1 [] E) ->
  drun (st_of t) (dn <-? parent_and_name fz o2 pfuel gh ps rs root path ;;
                  let '(dir, name) := dn in r <- os (w dir name) ;; close dir ;;; Ret r) = after_unit s t1 dir E.
Proof.
  intros Hp Hw. rewrite (drun_parent _ _ _ _ _ _ _ _ Hp). destruct Hp as (_ & Hd & Hlt & _).
  apply drun_after_unit, Hw; assumption.
Qed.

(* mknodat: the type bits come from the InodeType, the permission bits from the caller's mode *)
Lemma mknod_exact kb raw dev k t root path t1 dir name o :
  parent_ok t root path t1 dir name o -> has_nul name = false ->
  N.land kb S_IFMT = kb -> kind_of_mode (N.lor kb (N.land raw MODE_BITS)) = Some k ->
  drun (st_of t) (dn <-? parent_and_name fz o2 pfuel gh ps rs root path ;;
                  let '(dir, name) := dn in r <- os (w_mknodat fz dir name (N.lor kb (perm raw)) dev) ;; close dir ;;; Ret r)
  = after_unit s t1 dir (create_sem s o name k).
Proof.
  intros Hp Hnn Hkm Hk. apply (one_parent_effect (fun d n => w_mknodat fz d n (N.lor kb (perm raw)) dev) _ _ _ _ _ _ _ _ Hp).
  intros Hd Hlt. apply (drun_w_mknodat rp fz Hfz s t1 [] dir o name _ dev k Hd Hlt Hnn). rewrite (type_perm_split kb raw Hkm). exact Hk.
Qed.

(* two parent lookups; the first directory is still open on its object after the second (rename, hard links) *)
Lemma parent_ok_keeps t root p1 p2 t1 d1 n1 o1 t2 d2 n2 o3 :
  parent_ok t root p1 t1 d1 n1 o1 -> parent_ok t1 root p2 t2 d2 n2 o3 -> tget t2 d1 = Some o1.
Proof. intros (_ & Hd1 & _) (_ & _ & _ & Hkeep2 & _). exact (tget_keep _ _ _ _ Hd1 Hkeep2). Qed.

Lemma drun_parent2 {B} (K : Z -> bytes -> result (Z * bytes) ekind -> prog (result B ekind)) t root p1 p2 t1 d1 n1 o1 t2 d2 n2 o3 :
  parent_ok t root p1 t1 d1 n1 o1 -> parent_ok t1 root p2 t2 d2 n2 o3 ->
  drun (st_of t) (dn <-? parent_and_name fz o2 pfuel gh ps rs root p1 ;;
                  let '(d, n) := dn in r <- parent_and_name fz o2 pfuel gh ps rs root p2 ;; K d n r) =
  drun (st_of t2) (K d1 n1 (Ok (d2, n2))).
Proof.
  intros Hp1 (Hrun2 & _). rewrite (drun_parent _ _ _ _ _ _ _ _ Hp1). cbn beta iota. rewrite drun_bind.
  rewrite (drun_static rp _ (parent_and_name_ne fz o2 pfuel gh ps rs root p2) s t1 t2 _ Hrun2). reflexivity.
Qed.

Lemma drun_after_unit2 t2 da db (w : prog (result unit N)) E :
  drun (st_of t2) w = eff_unit s t2 [] E ->
  drun (st_of t2) (r <- os w ;; close da ;;; close db ;;; Ret r) = after_eff (fun t => tdel (tdel t da) db) s t2 E.
Proof.
  intro Hw. rewrite drun_bind, drun_os, Hw.
  destruct E; cbn [eff_unit eff_st after_eff]; try reflexivity; rewrite drun_bind, drun_close_any, drun_bind, drun_close_any; reflexivity.
Qed.

(* the O_CREAT open of create_file; the descriptor returned is open on the very object that is now (or already was)
   under that name *)
Lemma drun_w_openat_creat t dir d name fl mode
      (F := N.lor (N.lor (N.lor fl OPENAT_NOFOLLOW_FORCED) OPENAT_FORCED) O_LARGEFILE) :
  tget t dir = Some d -> (d < NPB s)%nat -> has_nul name = false -> has F O_CREAT = true ->
  drun (st_of t) (w_openat fz dir name fl mode) =
  match creat_sem s d name F with
  | EOpen s' ob => let t2 := reloc (NPB s) (NPB s') t in DDone {| ds := s'; dt := (fresh t2, ob) :: t2; dseen := [] |} (Ok (fresh t2))
  | EErr e => DDone (st_of t) (Err e)
  | EOut => DDone (st_of t) (Err ENOSYS)
  | EUnit _ => DNoFuel
  end.
Proof.
  intros Hd Hlt Hn Hcr. unfold w_openat, w_openat_follow, rustix_path. rewrite (tget_valid _ _ _ Hd), Hn. cbn [negb Dyn.drun].
  fold F. unfold Dyn.danswer. cbn [Dyn.dsem ds dt dseen]. rewrite Hcr, (dsem_on1 s t [] dir d _ Hd Hlt).
  pose proof (creat_sem_not_unit s d name F) as Hnu.
  destruct (creat_sem s d name F) as [|e|s'|s' ob]; cbn [of_eres ds dt dseen].
  - rewrite reloc_same. apply (drun_decode rp fz Hfz _ dir as_fd (RErr ENOSYS)).
  - rewrite reloc_same. apply (drun_decode rp fz Hfz _ dir as_fd (RErr e)).
  - exfalso. exact (Hnu s' eq_refl).
  - rewrite as_fd_fresh. reflexivity.
Qed.

End OPS.

Section EMU.
Variable s : fs.
Variable rp : bytes.
Variable F : list (Z * nat).
Variable df : nat -> nat.
Variables fz pfuel : nat.
Variable o2 : bool.
Variable gh : phandle.
Variable ps : N.
Hypothesis Hcl : closed s.
Hypothesis Hfz : fz <> 0%nat.
Hypothesis Hchk : chk_static_ok s rp F (check_current fz o2 pfuel gh).
Hypothesis Hwf : FSProofs.wf s df.
Hypothesis Hl : links_ok s.
Variable rs : resolver.
Hypothesis Hk : rs_kernel rs = false.

(* emulated backend: C01's refinement + C11's balance, read on the static kernel *)
Lemma parent_ok_emu t root path dirp name o :
  path_split path = Some (Ok (dirp, Some name)) -> has_nul dirp = false ->
  Frame s F t -> tget t root = Some ROOT ->
  FSModel.ewalk s dirp false (has (rs_flags rs) RESOLVE_NO_SYMLINKS) = FSModel.WOk o ->
  exists t1 dir, parent_ok s rp fz pfuel o2 gh ps rs t root path t1 dir name o /\ Frame s F t1 /\ tget t1 root = Some ROOT.
Proof.
  intros Hsplit Hnul Hfr Hroot Hw.
  destruct (parent_strong s rp F df fz pfuel o2 gh ps Hcl Hfz Hchk Hwf Hl rs Hk t root path dirp name o Hsplit Hnul Hfr Hroot Hw)
    as (t1 & dir & Hrun & Hd & Hfr1 & Hroot1 & Hkeep & Honly).
  exists t1, dir. split; [|split; assumption].
  split; [exact Hrun|]. split; [exact Hd|]. split; [exact (ewalk_lt _ _ _ _ _ _ Hcl Hwf Hw)|]. split; assumption.
Qed.

End EMU.

Section KERN.
Variable s : fs.
Variable rp : bytes.
Variables fz pfuel : nat.
Variable gh : phandle.
Variable ps : N.
Hypothesis Hcl : closed s.
Hypothesis Hfz : fz <> 0%nat.
Variable rs : resolver.
Hypothesis Hk : rs_kernel rs = true.

Lemma tfind_fresh_none t : tfind t (fresh t) = None.
Proof. exact (tfind_fresh t). Qed.

(* kernel backend: one openat2(RESOLVE_IN_ROOT) answered with the kernel's walk *)
Lemma parent_ok_kern t root path dirp name o :
  path_split path = Some (Ok (dirp, Some name)) -> has_nul dirp = false ->
  tget t root = Some ROOT ->
  FSModel.kwalk s dirp false (has (N.lor OPENAT2_RESOLVE_RESOLVE (rs_flags rs)) RESOLVE_NO_SYMLINKS) = FSModel.WOk o ->
  parent_ok s rp fz pfuel true gh ps rs t root path ((fresh t, o) :: t) (fresh t) name o.
Proof.
  intros Hsplit Hnul Hroot Hw.
  pose proof (run_k_resolve s rp fz Hfz Hcl t root dirp (rs_flags rs) false Hroot Hnul) as Hr. rewrite Hw in Hr.
  split; [|split; [apply tget_new|split; [exact (kwalk_lt _ _ _ _ _ Hcl Hw)|split]]].
  - unfold parent_and_name, resolve_parent. rewrite Hsplit. unfold bindR. rewrite !(run_bind s rp).
    unfold r_resolve. rewrite Hk. rewrite Hr. reflexivity.
  - intros x Hx. cbn [tfind]. destruct (Z.eqb_spec (fresh t) x) as [E|_]; [|reflexivity].
    exfalso. rewrite <- E in Hx. exact (indom_fresh t Hx).
  - intros x Hx. unfold indom in *. cbn [tfind] in Hx. destruct (Z.eqb_spec (fresh t) x) as [E|_]; [right; symmetry; exact E|left; exact Hx].
Qed.

End KERN.

(* after the kernel backend's lookup the table is, once the directory is closed again, what it was *)
Lemma after_unit_kern s t o E : after_unit s ((fresh t, o) :: t) (fresh t) E = after_eff (fun t => t) s t E.
Proof. unfold after_unit. destruct E; try rewrite tdel_reloc; rewrite ?tdel_new; reflexivity. Qed.
