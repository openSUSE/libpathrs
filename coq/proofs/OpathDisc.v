(* OpathDisc.v -- the emulated in-root resolver (imp.rs, symlink_stack.rs), for every judgement
   on single calls (DisciplineProofs.judge): every call meets it for all kernel answers, every
   descriptor the walk hands on is a good one.  C05 is the instance Jd. *)
From PV Require Import Discipline ProgTac DisciplineProofs.

Definition rfd (fd : Z) : Prop := real_fd fd = true.

Section OpathDisc.
Variable J : judge.
Notation G := (jG J).
Notation okg := (okp (jP J) (jS J)).

Definition dirs_ok (ss : sstack) : Prop := Forall G (sdirs ss).
Definition stack_ok (s : option sstack) : Prop :=
  match s with None => True | Some ss => dirs_ok ss end.
Definition wst_ok (st : wst) : Prop := G (w_root st) /\ G (w_cur st) /\ stack_ok (w_stack st).
Definition Qlk {E} : result lookup E -> Prop := okR (fun l => G (lookup_fd l)).
Definition wres_ok (w : wres) : Prop := Qlk (r_out w) /\ stack_ok (r_stack w).

Lemma ss_strip_ok fuel : forall st rel st' rel',
  ss_strip fuel st rel = (st', rel') -> dirs_ok st -> Forall G rel ->
  dirs_ok st' /\ Forall G rel'.
Proof.
  induction fuel as [|f IH]; intros st rel st' rel'; cbn [ss_strip].
  - intros H; injection H as <- <-; auto.
  - destruct (unsnoc st) as [[init tail]|] eqn:E; [|intros H; injection H as <- <-; auto].
    destruct (is_nil (se_parts tail)); [|intros H; injection H as <- <-; auto].
    intros H Hs Hr. unfold dirs_ok in Hs. rewrite (unsnoc_app _ _ _ E), sdirs_app in Hs.
    apply Forall_app in Hs as [Hi Ht].
    eapply IH; [exact H|exact Hi|]. apply Forall_app; split; assumption.
Qed.

Lemma ss_pop_part_ok st part st' rel :
  ss_pop_part st part = Ok (st', rel) -> dirs_ok st -> dirs_ok st' /\ Forall G rel.
Proof.
  intros H Hs. unfold ss_pop_part in H. destruct (ss_do_pop st part) as [st1|[]] eqn:E; try discriminate.
  - injection H as H1. eapply ss_strip_ok; [exact H1| |constructor].
    unfold dirs_ok. rewrite (ss_do_pop_dirs _ _ _ E). exact Hs.
  - injection H as <- <-. split; [exact Hs|constructor].
Qed.

Lemma rc_drop_ok fd r : G fd -> okg QT (rc_drop fd r).
Proof.
  intro H. unfold rc_drop. destruct (rc_get fd r) as [|[|n]]; try (constructor; exact I).
  apply okg_close; [exact H|constructor; exact I].
Qed.

Lemma rc_drop_all_ok fds : forall r, Forall G fds -> okg QT (rc_drop_all fds r).
Proof.
  induction fds as [|fd t IH]; intros r HF; cbn [rc_drop_all]; [constructor; exact I|].
  inversion HF; subst. eapply okp_bind; [apply rc_drop_ok; assumption|]. intros r' _. apply IH; assumption.
Qed.

Lemma opt_close_ok (next : option Z) :
  (forall n, next = Some n -> G n) -> okg QT (match next with Some n => close n | None => Ret tt end).
Proof. intro Hn. destruct next as [n|]; [apply j_close, Hn; reflexivity|constructor; exact I]. Qed.

Variable fz : nat.
Variable cfg : bool.
Variable pfuel : nat.
Variable gh : phandle.
Variable sysctl_ps : N.
Hypothesis Hgh : G (ph_fd gh).

Notation chk0 := (check_current fz cfg pfuel gh).
Notation fin0 := (final_check fz cfg pfuel gh).
Notation walk_open := (walk_open fz sysctl_ps chk0 fin0).
Notation walk_body := (walk_body fz sysctl_ps chk0 fin0).
Notation walk := (walk fz cfg pfuel gh sysctl_ps).

Lemma check_current_ok cur root exp :
  okg (okR QT) (check_current fz cfg pfuel gh cur root exp).
Proof.
  unfold check_current.
  eapply okp_bindR; [apply (as_unsafe_path_ok J); exact Hgh|]. intros rp _.
  eapply okp_bindR; [apply (as_unsafe_path_ok J); exact Hgh|]. intros cp _.
  destruct (negb _); [auto with tails|].
  eapply okp_bindR; [apply (as_unsafe_path_ok J); exact Hgh|]. intros np _.
  destruct (negb _); auto with tails.
Qed.

Lemma may_follow_link_ok dir link : G dir -> G link -> okg (okR QT) (may_follow_link fz sysctl_ps dir link).
Proof.
  intros Hd Hl. unfold may_follow_link. constructor; [apply j_geteuid|]. intro ru.
  eapply okp_bindR; [apply okp_os, j_fstatat; [exact Hd|reflexivity]|]. intros dm _.
  eapply okp_bindR; [apply okp_os, j_fstatat; [exact Hl|reflexivity]|]. intros lm _.
  destruct (_ || _); auto with tails.
Qed.

Lemma bail_ok st next e :
  wst_ok st -> (forall n, next = Some n -> G n) -> okg wres_ok (bail st next e).
Proof.
  intros (Hr & Hc & Hs) Hn. unfold bail.
  eapply okp_then; [apply opt_close_ok, Hn|].
  eapply okp_bind; [apply rc_drop_ok; exact Hc|]. intros r1 _.
  eapply okp_bind; [apply rc_drop_ok; exact Hr|]. intros r2 _.
  constructor. split; [exact I|exact Hs].
Qed.

Lemma ret_partial_ok st next rem e :
  wst_ok st -> (forall n, next = Some n -> G n) -> okg wres_ok (ret_partial st next rem e).
Proof.
  intros (Hr & Hc & Hs) Hn. unfold ret_partial.
  eapply okp_then; [apply opt_close_ok, Hn|].
  eapply okp_bind; [apply rc_drop_ok; exact Hr|]. intros r1 _.
  constructor. split; [exact Hc|exact Hs].
Qed.

Lemma set_cur_ok st newfd fresh exp stack :
  wst_ok st -> G newfd -> stack_ok stack -> okg wst_ok (set_cur st newfd fresh exp stack).
Proof.
  intros (Hr & Hc & Hs) Hn Hst. unfold set_cur.
  eapply okp_bind; [apply rc_drop_ok; exact Hc|]. intros r2 _.
  constructor. repeat split; assumption.
Qed.

Lemma stack_pop_part_ok st part :
  wst_ok st -> okg (okR (fun sr : option sstack * refs => stack_ok (fst sr))) (stack_pop_part st part).
Proof.
  intros (Hr & Hc & Hs). unfold stack_pop_part.
  destruct (w_stack st) as [ss|] eqn:E; [|constructor; exact I].
  destruct (ss_pop_part ss part) as [[ss' rel]|e] eqn:Ep; [|constructor; exact I].
  destruct (ss_pop_part_ok _ _ _ _ Ep Hs) as [Hs' Hrel].
  eapply okp_bind; [apply rc_drop_all_ok; exact Hrel|]. intros r _. constructor. exact Hs'.
Qed.

Lemma final_check_ok st : wst_ok st -> okg wres_ok (final_check fz cfg pfuel gh st).
Proof.
  intros Hst. unfold final_check, final_check_gen.
  eapply okp_bind; [apply check_current_ok|]. intros [_u|e] _; [|apply bail_ok; [exact Hst|discriminate]].
  destruct Hst as (Hr & Hc & Hs).
  eapply okp_bind; [apply rc_drop_ok; exact Hr|]. intros r1 _.
  constructor. split; [exact Hc|exact Hs].
Qed.

Lemma wst_ok_upd st exp' refs' stack' :
  wst_ok st -> stack_ok stack' ->
  wst_ok {| w_root := w_root st; w_cur := w_cur st; w_exp := exp'; w_refs := refs'; w_stack := stack' |}.
Proof. intros (Hr & Hc & _) Hs. repeat split; assumption. Qed.

Lemma swap_link_ok st part remaining target stack' refs' :
  wst_ok st ->
  match w_stack st with
  | None => Ok (None, w_refs st)
  | Some ss =>
      match ss_swap_link ss part (w_cur st) remaining target with
      | Ok ss' => Ok (Some ss', rc_inc (w_cur st) (w_refs st))
      | Err e => Err e
      end
  end = Ok (stack', refs') -> stack_ok stack'.
Proof.
  intros (_ & Hc & Hs). destruct (w_stack st) as [ss|]; [|intro H; injection H as <- _; exact I].
  destruct (ss_swap_link ss part (w_cur st) remaining target) as [ss'|e] eqn:Esw; [|discriminate].
  intro H; injection H as <- _. cbn. unfold dirs_ok. rewrite (ss_swap_link_dirs _ _ _ _ _ _ Esw).
  apply Forall_app; split; [exact Hs|]. constructor; [exact Hc|constructor].
Qed.

Lemma walk_open_ok nosym nofollow follow inner remaining rest :
  (forall go, follow = Some go -> forall st cs, wst_ok st -> singles cs -> okg wres_ok (go st cs)) ->
  (forall st, wst_ok st -> okg wres_ok (inner st rest)) ->
  singles rest ->
  forall st part, wst_ok st -> okg wres_ok (walk_open nosym nofollow follow inner remaining rest st part).
Proof.
  intros Hgo Hinner Hrest st part Hst. unfold OpathM.walk_open.
  destruct (has_slash part) eqn:Hsl; [apply bail_ok; [exact Hst|discriminate]|].
  pose proof Hst as (Hr & Hc & Hs).
  eapply okp_os_bind; [apply j_openat; [exact Hc|exact (single_of_no_slash _ Hsl)|apply j_nc; reflexivity]|].
  intros [next|e] Hnext; [|apply ret_partial_ok; [exact Hst|discriminate]].
  cbn in Hnext.
  assert (Hn : forall n, Some next = Some n -> G n) by (intros n H; injection H as <-; exact Hnext).
  eapply okp_bind; [apply okp_if; [apply check_current_ok|auto with tails]|].
  intros [_u|e] _; [|apply bail_ok; assumption].
  eapply okp_os_bind; [apply j_fstatat; [exact Hnext|reflexivity]|].
  intros [meta|e] _; [|apply bail_ok; assumption].
  apply okp_if.
  { eapply okp_bind; [apply stack_pop_part_ok; exact Hst|].
    intros [[stack' refs']|e] Hsp; [|apply bail_ok; assumption]. cbn in Hsp.
    eapply okp_bind; [apply set_cur_ok; [apply wst_ok_upd; assumption|exact Hnext|exact Hsp]|].
    exact Hinner. }
  apply okp_if.
  { eapply okp_bind; [apply set_cur_ok; [exact Hst|exact Hnext|exact Hs]|]. exact final_check_ok. }
  apply okp_if; [apply ret_partial_ok; assumption|].
  eapply okp_bind; [apply okp_if; [auto with tails|apply may_follow_link_ok; assumption]|].
  intros [_u2|e] _; [|apply bail_ok; assumption].
  destruct follow as [go|]; [|apply ret_partial_ok; assumption].
  eapply okp_os_bind; [apply j_readlinkat; exact Hnext|].
  intros [target|e] _; [|apply bail_ok; assumption].
  eapply okp_bind; [apply okp_if; [eapply okp_weakT, (is_magiclink_filesystem_ok J), Hnext|auto with tails]|].
  intros [[|]|e] _; try (apply bail_ok; assumption).
  match goal with |- context [match ?sw with Ok _ => _ | Err _ => _ end] =>
    destruct sw as [[stack' refs']|e] eqn:Esw; [|apply bail_ok; assumption] end.
  pose proof (swap_link_ok _ _ _ _ _ _ Hst Esw) as Hs'. cbn zeta.
  eapply okp_bind.
  { apply okp_if; [apply set_cur_ok; [apply wst_ok_upd; assumption|exact Hr|exact Hs']|].
    constructor. apply wst_ok_upd; assumption. }
  intros st2 Hst2. apply okg_close; [exact Hnext|].
  eapply Hgo; [reflexivity|exact Hst2|]. apply singles_app; [apply singles_raw|exact Hrest].
Qed.

Lemma walk_body_ok nosym nofollow follow :
  (forall go, follow = Some go -> forall st cs, wst_ok st -> singles cs -> okg wres_ok (go st cs)) ->
  forall st cs, wst_ok st -> singles cs -> okg wres_ok (walk_body nosym nofollow follow st cs).
Proof.
  intros Hgo st cs. revert st. induction cs as [|part0 rest IH]; intros st Hst Hcs; cbn [OpathM.walk_body].
  - apply final_check_ok; exact Hst.
  - inversion Hcs as [|? ? Hp0 Hrest]; subst. cbn zeta.
    assert (Hopen : forall st' part, wst_ok st' ->
              okg wres_ok (walk_open nosym nofollow follow (walk_body nosym nofollow follow)
                                (join_slash (part0 :: rest)) rest st' part)).
    { intros st' part Hst'. apply walk_open_ok; try assumption.
      intros st'' Hst''. apply IH; assumption. }
    pose proof Hst as (Hr & Hc & Hs).
    destruct (is_nil part0); [apply Hopen; exact Hst|].
    destruct (is_dot part0); [apply Hopen; exact Hst|].
    destruct (is_dotdot part0); [|apply Hopen, wst_ok_upd; assumption].
    destruct (w_exp st) eqn:Eexp; [|apply Hopen, wst_ok_upd; assumption].
    eapply okp_bind; [apply stack_pop_part_ok; exact Hst|].
    intros [[stack' refs']|e] Hsp; [|apply bail_ok; [exact Hst|discriminate]]. cbn in Hsp.
    eapply okp_bind; [apply set_cur_ok; [apply wst_ok_upd; assumption|exact Hr|exact Hsp]|].
    intros st' Hst'. apply IH; assumption.
Qed.

Lemma walk_ok budget nosym nofollow st cs :
  wst_ok st -> singles cs -> okg wres_ok (walk budget nosym nofollow st cs).
Proof. revert st cs. unfold OpathM.walk. apply walk_gen_budget_ind. exact (walk_body_ok nosym nofollow). Qed.

Lemma do_resolve_ok root path nosym nofollow stack :
  G root -> stack_ok stack ->
  okg (okR wres_ok) (do_resolve fz cfg pfuel gh sysctl_ps root path nosym nofollow stack).
Proof.
  intros Hroot Hs. unfold do_resolve.
  eapply okp_bindR; [apply okp_os, j_dup; exact Hroot|]. intros rd Hrd.
  assert (Hst : wst_ok {| w_root := rd; w_cur := rd; w_exp := []; w_refs := [(rd, 2%nat)]; w_stack := stack |})
    by (repeat split; assumption).
  destruct (EMPTY_PATH_IS_ENOENT && is_nil path).
  - eapply okp_bind; [apply ret_partial_ok; [exact Hst|discriminate]|]. intros r Hr. constructor. exact Hr.
  - eapply okp_bind; [apply walk_ok; [exact Hst|apply singles_raw]|]. intros r Hr. constructor. exact Hr.
Qed.

Lemma unwrap_rc_ok l r : G (lookup_fd l) -> okg (fun l' => G (lookup_fd l')) (unwrap_rc l r).
Proof.
  intro H. unfold unwrap_rc.
  destruct (rc_get _ r) as [|[|n]]; constructor; try exact H; apply j_rc.
Qed.

Theorem opath_resolve_root_ok root path nosym nofollow :
  G root -> okg (okR G) (opath_resolve_root fz cfg pfuel gh sysctl_ps root path nosym nofollow).
Proof.
  intro Hroot. unfold opath_resolve_root.
  eapply okp_bindR; [apply do_resolve_ok; [exact Hroot|exact I]|]. intros w [Ho Hs].
  destruct (r_out w) as [l|e]; [|auto with tails]. cbn in Ho.
  eapply okp_bind; [apply unwrap_rc_ok; exact Ho|]. intros [fd|fd rem e] Hl'; auto with tails.
Qed.

Theorem opath_resolve_partial_ok root path nosym nofollow :
  G root -> okg Qlk (opath_resolve_partial fz cfg pfuel gh sysctl_ps root path nosym nofollow).
Proof.
  intro Hroot. unfold opath_resolve_partial.
  eapply okp_bindR; [apply do_resolve_ok; [exact Hroot|constructor]|]. intros w [Ho Hs].
  assert (Hss : dirs_ok (match r_stack w with Some s => s | None => [] end)).
  { destruct (r_stack w); [exact Hs|constructor]. }
  revert Hss. generalize (match r_stack w with Some s => s | None => [] end). intros ss Hss.
  assert (Hun : forall l r, G (lookup_fd l) -> okg (@Qlk ekind) (l' <- unwrap_rc l r ;; Ret (Ok l'))).
  { intros l r Hl. eapply okp_bind; [apply unwrap_rc_ok, Hl|]. intros l' Hl'. constructor; exact Hl'. }
  destruct (r_out w) as [[fd|fd rem e]|e]; cbn in Ho.
  - eapply okp_bind; [apply rc_drop_all_ok; exact Hss|]. intros r' _. apply Hun, Ho.
  - destruct ss as [|top rest_ss]; [apply Hun, Ho|]. apply Forall_cons_iff in Hss as [Htop Hrest].
    eapply okp_bind; [apply rc_drop_ok; exact Ho|]. intros r1 _.
    eapply okp_bind; [apply rc_drop_all_ok; exact Hrest|]. intros r2 _. apply Hun, Htop.
  - eapply okp_then; [apply rc_drop_all_ok; exact Hss|auto with tails].
Qed.

End OpathDisc.
