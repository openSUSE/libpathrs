(* StaticProofs.v -- C01: the program of the emulated resolver, executed on the
   static kernel of theories/Static.v over ANY well-formed tree, returns exactly
   what FSModel.ewalk computes (and hence, by FSProofs.emu_eq_kernel, what the
   kernel's own in-root walk computes).  The '..' / final path checks are a
   parameter [chk]: the theorem holds for every check routine that succeeds
   when the walk is where it believes to be ([chk_static_ok]); check_current is
   one, given the kernel's d_path contract for as_unsafe_path
   ([check_current_static], last in this file; the contract itself is
   StaticProcfs.getpath_static_any).
   The file also holds the run layer the other Static* files build on: the
   descriptor table, the kernel's answer per call ([sem_*]), the wrappers as that
   answer decoded ([run_w_*]).  In every section [run] abbreviates
   [Static.run s rp] for the section's tree and root rendering. *)
From PV Require Import Static PathProofs BitsProofs ProgTac RootM RootDisc CheckProofs.
From PV Require FSProofs.

Lemma fresh_gt t : forall f o, In (f, o) t -> (f < fresh t)%Z.
Proof.
  induction t as [|[f' o'] t IH]; intros f o Hin; [destruct Hin|].
  cbn [fresh fold_right fst]. fold (fresh t). destruct Hin as [E|Hin].
  - inversion E; subst. lia.
  - specialize (IH f o Hin). lia.
Qed.

(* Static.fresh hands out descriptors from 3 up: past stdin, stdout, stderr *)
Lemma fresh_ge3 t : (3 <= fresh t)%Z.
Proof. induction t as [|[f o] t IH]; cbn [fresh fold_right fst]; [lia|]. fold (fresh t). lia. Qed.

Lemma as_fd_fresh t : as_fd (RFd (fresh t)) = Ok (fresh t).
Proof. cbn [as_fd]. pose proof (fresh_ge3 t). destruct (Z.leb_spec 0 (fresh t)); [reflexivity|lia]. Qed.

Lemma tfind_in t fd o : tfind t fd = Some o -> In (fd, o) t.
Proof.
  induction t as [|[f o'] t IH]; cbn [tfind]; [discriminate|].
  destruct (Z.eqb_spec f fd) as [->|Hne]; intro H.
  - inversion H; subst. left; reflexivity.
  - right. apply IH, H.
Qed.

Lemma tget_pos t fd o : tget t fd = Some o -> (0 <= fd)%Z.
Proof. unfold tget. destruct (Z.ltb_spec fd 0); [discriminate|intros _; assumption]. Qed.

Lemma tget_valid t fd o : tget t fd = Some o -> valid_fd fd = true.
Proof. intro H. apply tget_pos in H. unfold valid_fd. apply orb_true_iff. right. apply Z.leb_le, H. Qed.

Lemma tget_not_cwd t fd o : tget t fd = Some o -> Z.eqb fd AT_FDCWD = false.
Proof. intro H. apply tget_pos in H. apply Z.eqb_neq. unfold AT_FDCWD. lia. Qed.

Lemma tfind_fresh t : tfind t (fresh t) = None.
Proof. destruct (tfind t (fresh t)) as [o|] eqn:E; [|reflexivity]. apply tfind_in, fresh_gt in E. lia. Qed.

Lemma tget_fresh_none t : tget t (fresh t) = None.
Proof. unfold tget. rewrite tfind_fresh. destruct (Z.ltb (fresh t) 0); reflexivity. Qed.

Lemma tget_new t o : tget ((fresh t, o) :: t) (fresh t) = Some o.
Proof.
  unfold tget. pose proof (fresh_ge3 t). destruct (Z.ltb_spec (fresh t) 0); [lia|].
  cbn [tfind]. rewrite Z.eqb_refl. reflexivity.
Qed.

Lemma fresh_neq t fd d : tget t fd = Some d -> fresh t <> fd.
Proof. intros H E. subst. rewrite tget_fresh_none in H. discriminate. Qed.

Lemma tget_new_old t o fd d : tget t fd = Some d -> tget ((fresh t, o) :: t) fd = Some d.
Proof.
  intro H. pose proof (fresh_neq t fd d H) as Hne.
  unfold tget in *. destruct (Z.ltb fd 0); [discriminate|]. cbn [tfind].
  destruct (Z.eqb_spec (fresh t) fd); [contradiction|exact H].
Qed.

Lemma tfind_del t fd x : tfind (tdel t fd) x = if Z.eqb fd x then None else tfind t x.
Proof.
  induction t as [|[f ob] t IH]; [destruct (Z.eqb fd x); reflexivity|]. cbn [tdel filter fst].
  fold (tdel t fd). destruct (Z.eqb_spec f fd) as [->|Hf]; cbn [negb tfind]; rewrite IH.
  - destruct (Z.eqb fd x); reflexivity.
  - destruct (Z.eqb_spec f x) as [->|Hx]; [|reflexivity]. destruct (Z.eqb_spec fd x); [congruence|reflexivity].
Qed.

Lemma tget_del_other t fd fd' : fd' <> fd -> tget (tdel t fd) fd' = tget t fd'.
Proof. intro H. unfold tget. rewrite tfind_del. destruct (Z.eqb_spec fd fd'); [congruence|reflexivity]. Qed.

Section Kernel.
Variable s : fs.
Variable rp : bytes.

Lemma answer_new t c o : sem s rp t c = SNew o -> answer s rp t c = ((fresh t, o) :: t, RFd (fresh t)).
Proof. unfold answer. intros ->. reflexivity. Qed.

Lemma answer_ret t c r : sem s rp t c = SRet r -> answer s rp t c = (t, r).
Proof. unfold answer. intros ->. reflexivity. Qed.

Lemma sem_statx_nil t fd o fl m : tget t fd = Some o ->
  sem s rp t (Statx fd [] fl m) = SRet (RStatx STATX_WANT_MASK (if Nat.leb (PB s) o then PROC_MNT else FS_MNT)).
Proof. intro H. cbn [sem]. rewrite H. reflexivity. Qed.

Lemma link_body_beyond o : (PB s <= o)%nat -> FSModel.link_body s o = None.
Proof. intro H. unfold FSModel.link_body, FSModel.kind_of. rewrite nth_overflow by exact H. reflexivity. Qed.

(* the magic-link fd/N reads as the kernel's rendering of the object descriptor N is open on *)
Lemma sem_readlinkat_magic t fd o : tget t fd = Some (P_LINK s o) ->
  sem s rp t (Readlinkat fd []) =
  match find_path s o with Some exp => SRet (RBytes (render rp exp)) | None => SRet (RErr ENOENT) end.
Proof.
  intro H. cbn [sem]. rewrite H. cbn [is_nil negb]. unfold P_LINK.
  rewrite link_body_beyond by (rewrite <- Nat.add_assoc; apply Nat.le_add_r).
  rewrite (proj2 (Nat.leb_le _ _) (Nat.le_add_r (PB s + NP) o)), Nat.add_comm, Nat.add_sub. reflexivity.
Qed.

Lemma sem_openat t fd d part fl m :
  tget t fd = Some d -> opath_nofollow fl = true -> has_slash part = false -> has_nul part = false ->
  sem s rp t (Openat fd part fl m) =
  match (if Nat.leb (PB s) d then psem_open s t (d - PB s) part else sem_open s d part) with
  | inl o => if has fl O_DIRECTORY && negb (obj_is_dir s o) then SRet (RErr ENOTDIR) else SNew o
  | inr e => SRet (RErr e)
  end.
Proof.
  intros H Hfl Hsl Hnul. cbn [sem]. rewrite H, Hfl, Hsl, Hnul.
  unfold opath_nofollow in Hfl. apply andb_true_iff in Hfl. destruct Hfl as [_ ->].
  rewrite andb_false_r. reflexivity.
Qed.

End Kernel.

(* what the kernel guarantees of every symlink body: no NUL, shorter than the library's buffer *)
Definition links_ok (s : fs) : Prop :=
  forall o body, FSModel.link_body s o = Some body ->
    has_nul body = false /\ N.leb READLINK_BUF (N.of_nat (length body)) = false.

(* descriptors that are not the walk's -- the procfs handle -- stay what they are: a
   frame [F] of (descriptor, procfs object) pairs the walk never touches *)
Definition Frame (s : fs) (F : list (Z * nat)) (t : fdt) : Prop :=
  forall fd p, In (fd, p) F -> tget t fd = Some p /\ (PB s <= p)%nat.

(* the objects of the tree are closed under lookup and parent, and numbered below PB *)
Definition closed (s : fs) : Prop :=
  (0 < PB s)%nat /\
  (forall d n c, FSModel.lookup s d n = Some c -> (c < PB s)%nat) /\
  (forall o, (o < PB s)%nat -> (FSModel.parent_of s o < PB s)%nat).

(* a check routine that succeeds -- leaving the descriptor table as it was -- whenever
   [cur] is open on the object whose path below the root is [exp] *)
Definition chk_static_ok (s : fs) (rp : bytes) (F : list (Z * nat)) (chk : Z -> Z -> list bytes -> prog (result unit ekind)) : Prop :=
  forall t cur root exp o,
    Frame s F t ->
    tget t root = Some ROOT -> tget t cur = Some o -> FSModel.descend s ROOT exp = Some o ->
    run s rp t (chk cur root exp) = Done t (Ok tt).

Section SP.
Variable s : fs.
Variable rp : bytes.        (* the kernel's rendering of the root directory *)
Variable F : list (Z * nat).  (* descriptors outside the walk (the procfs handle) *)
Hypothesis Hclosed : closed s.
Variable fz : nat.
Hypothesis Hfz : fz <> 0%nat.
(* the '..' / final check: any routine that succeeds when the walk is where it believes to be *)
Variable chk : Z -> Z -> list bytes -> prog (result unit ekind).
Hypothesis chk_ok : chk_static_ok s rp F chk.
Variable df : nat -> nat.
Hypothesis Hwf : FSProofs.wf s df.
Hypothesis Hlinks : links_ok s.
Variable ps : N.              (* the cached fs.protected_symlinks *)
Variables nosym nofollow : bool.

Notation run := (run s rp).
Notation fin := (final_check_gen chk).

Lemma frame_new t o : Frame s F t -> Frame s F ((fresh t, o) :: t).
Proof. intros H fd p Hin. destruct (H fd p Hin) as [Hg Hp]. split; [apply tget_new_old, Hg|exact Hp]. Qed.

Lemma frame_del t fd o : Frame s F t -> tget t fd = Some o -> (o < PB s)%nat -> Frame s F (tdel t fd).
Proof.
  intros H Hfd Hlt k p Hin. destruct (H k p Hin) as [Hg Hp]. split; [|exact Hp].
  rewrite tget_del_other; [exact Hg|]. intro E. subst k. rewrite Hfd in Hg. inversion Hg. lia.
Qed.

Lemma run_bind {A B} (p : prog A) (f : A -> prog B) : forall t,
  run t (bind p f) = match run t p with
                     | Done t' a => run t' (f a)
                     | Panicked x => Panicked x
                     | NoFuel => NoFuel
                     end.
Proof.
  induction p as [a|c k IH| |]; intro t; cbn [bind Static.run]; try reflexivity.
  destruct (answer s rp t c) as [t' r]. apply IH.
Qed.

Lemma run_frozen t fd : run t (frozen fz fd) = Done t tt.
Proof.
  destruct fz as [|f]; [contradiction|]. cbn [frozen]. destruct (proc_subpath fd); reflexivity.
Qed.

Lemma run_fail1 {A} t fd e : run t (@fail1 fz A fd e) = Done t (Err e).
Proof. unfold fail1. rewrite run_bind, run_frozen. reflexivity. Qed.

Lemma run_bindR {A B E} t (p : prog (result A E)) (f : A -> prog (result B E)) :
  run t (bindR p f) = match run t p with
                      | Done t' (Ok a) => run t' (f a)
                      | Done t' (Err e) => Done t' (Err e)
                      | Panicked x => Panicked x
                      | NoFuel => NoFuel
                      end.
Proof. unfold bindR. rewrite run_bind. destruct (run t p) as [t' [a|e]| |]; reflexivity. Qed.

Lemma run_bindR_ok {A B E} t (p : prog (result A E)) (f : A -> prog (result B E)) t' a :
  run t p = Done t' (Ok a) -> run t (bindR p f) = run t' (f a).
Proof. intro H. rewrite run_bindR, H. reflexivity. Qed.

Lemma run_os {A} t (p : prog (result A N)) :
  run t (os p) = match run t p with
                 | Done t' r => Done t' (match r with Ok a => Ok a | Err e => Err (OsError e) end)
                 | Panicked x => Panicked x
                 | NoFuel => NoFuel
                 end.
Proof. unfold os, map_err. rewrite run_bind. destruct (run t p); reflexivity. Qed.

(* the continuation every syscall wrapper ends in: decode the answer, freeze the descriptor on an error *)
Lemma run_decode {A} t fd (dec : resp -> result A N) r :
  run t (match dec r with Ok a => Ret (Ok a) | Err e => fail1 fz fd e end) = Done t (dec r).
Proof. destruct (dec r); [reflexivity|apply run_fail1]. Qed.

Lemma run_simple1 {A} t fd o path c (dec : resp -> result A N) :
  tget t fd = Some o -> has_nul path = false ->
  run t (simple1 fz fd path c dec) = let (t', r) := answer s rp t c in Done t' (dec r).
Proof.
  intros Hfd Hn. unfold simple1, rustix_path. rewrite (tget_valid _ _ _ Hfd), Hn. cbn [negb Static.run].
  destruct (answer s rp t c) as [t' r]. apply run_decode.
Qed.

Lemma run_w_openat_follow t fd o path fl m :
  tget t fd = Some o -> has_nul path = false ->
  run t (w_openat_follow fz fd path fl m) =
  let (t', r) := answer s rp t (Openat fd path (N.lor (N.lor fl OPENAT_FORCED) O_LARGEFILE) (N.land m MODE_BITS)) in
  Done t' (as_fd r).
Proof. exact (run_simple1 t fd o path _ as_fd). Qed.

Lemma run_w_readlinkat t fd o path :
  tget t fd = Some o -> has_nul path = false ->
  run t (w_readlinkat fz fd path) =
  let (t', r) := answer s rp t (Readlinkat fd path) in
  Done t' (match as_bytes r with
           | Ok bs => if N.leb READLINK_BUF (N.of_nat (length bs)) then Err ENAMETOOLONG else Ok bs
           | Err e => Err e
           end).
Proof.
  intros Hfd Hn. unfold w_readlinkat, rustix_path. rewrite (tget_valid _ _ _ Hfd), Hn. cbn [negb Static.run].
  destruct (answer s rp t _) as [t' r]. destruct (as_bytes r) as [bs|e]; [|apply run_fail1].
  destruct (N.leb READLINK_BUF (N.of_nat (length bs))); [apply run_fail1|reflexivity].
Qed.

Lemma run_w_fstatfs t fd o : tget t fd = Some o ->
  run t (w_fstatfs fz fd) = Done t (Ok (if Nat.leb (PB s) o then PROC_SUPER_MAGIC else TMPFS_MAGIC)).
Proof.
  intro Hfd. unfold w_fstatfs. rewrite (tget_valid _ _ _ Hfd). cbn [negb Static.run].
  unfold answer. cbn [sem]. rewrite Hfd. apply (run_decode t fd as_fstype).
Qed.

Lemma run_dup t fd o : tget t fd = Some o ->
  run t (os (dup_cloexec fd)) = Done ((fresh t, o) :: t) (Ok (fresh t)).
Proof.
  intro Hfd. rewrite run_os. unfold dup_cloexec. cbn [Static.run].
  unfold answer. cbn [sem]. rewrite Hfd. cbn [Static.run]. rewrite as_fd_fresh. reflexivity.
Qed.

Lemma run_fstatat_any t fd o : tget t fd = Some o ->
  run t (os (w_fstatat fz fd [])) =
  Done t (Ok {| st_mode := if Nat.leb (PB s) o then (if obj_is_dir s o then S_IFDIR else S_IFLNK)
                           else mode_of (FSModel.kind_of s o);
                st_uid := 0; st_ino := N.of_nat o; st_dev := 0 |}).
Proof.
  intro Hfd. rewrite run_os. unfold w_fstatat. rewrite (run_simple1 t fd o [] _ _ Hfd eq_refl).
  unfold answer. cbn [sem]. rewrite (tget_not_cwd _ _ _ Hfd), Hfd. reflexivity.
Qed.

Lemma opath_nofollow_word fl : has fl O_PATH = true ->
  opath_nofollow (N.lor (N.lor (N.lor fl OPENAT_NOFOLLOW_FORCED) OPENAT_FORCED) O_LARGEFILE) = true.
Proof.
  intro H. unfold opath_nofollow. apply andb_true_iff. split; do 2 apply has_lor_l.
  - apply has_lor_l, H.
  - apply has_lor_r. reflexivity.
Qed.

Lemma walk_flags_nodir :
  has (N.lor (N.lor (N.lor OPATH_WALK_FLAGS OPENAT_NOFOLLOW_FORCED) OPENAT_FORCED) O_LARGEFILE) O_DIRECTORY = false.
Proof. reflexivity. Qed.

Lemma run_openat t fd d part :
  tget t fd = Some d -> (d < PB s)%nat -> has_nul part = false -> has_slash part = false ->
  run t (os (w_openat fz fd part OPATH_WALK_FLAGS 0)) =
  match sem_open s d part with
  | inl o => Done ((fresh t, o) :: t) (Ok (fresh t))
  | inr e => Done t (Err (OsError e))
  end.
Proof.
  intros Hfd Hlt Hnul Hsl. rewrite run_os. unfold w_openat. rewrite (run_w_openat_follow t fd d part _ _ Hfd Hnul).
  unfold answer. rewrite (sem_openat s rp t fd d part _ _ Hfd (opath_nofollow_word OPATH_WALK_FLAGS eq_refl) Hsl Hnul), walk_flags_nodir.
  rewrite (proj2 (Nat.leb_gt _ _) Hlt). cbn [andb].
  destruct (sem_open s d part) as [o|e]; cbv beta iota; [rewrite as_fd_fresh|]; reflexivity.
Qed.

Lemma run_fstatat t fd o :
  tget t fd = Some o -> (o < PB s)%nat ->
  run t (os (w_fstatat fz fd [])) =
  Done t (Ok {| st_mode := mode_of (FSModel.kind_of s o); st_uid := 0; st_ino := N.of_nat o; st_dev := 0 |}).
Proof.
  intros Hfd Hlt. rewrite (run_fstatat_any t fd o Hfd), (proj2 (Nat.leb_gt _ _) Hlt). reflexivity.
Qed.

Lemma run_readlinkat t fd o body :
  tget t fd = Some o -> FSModel.link_body s o = Some body ->
  N.leb READLINK_BUF (N.of_nat (length body)) = false ->
  run t (os (w_readlinkat fz fd [])) = Done t (Ok body).
Proof.
  intros Hfd Hb Hlen. rewrite run_os, (run_w_readlinkat t fd o [] Hfd eq_refl).
  unfold answer. cbn [sem]. rewrite Hfd, Hb. cbn [is_nil negb as_bytes]. rewrite Hlen. reflexivity.
Qed.

Lemma run_is_magiclink t fd o :
  tget t fd = Some o -> (o < PB s)%nat -> run t (is_magiclink_filesystem fz fd) = Done t (Ok false).
Proof.
  intros Hfd Hlt. unfold is_magiclink_filesystem.
  rewrite run_bindR, run_os, (run_w_fstatfs t fd o Hfd), (proj2 (Nat.leb_gt _ _) Hlt). reflexivity.
Qed.

Lemma run_close t fd : run t (close fd) = Done (tdel t fd) tt.
Proof. reflexivity. Qed.

Lemma run_may_follow t dir link d l :
  tget t dir = Some d -> tget t link = Some l -> (d < PB s)%nat -> (l < PB s)%nat ->
  run t (may_follow_link fz ps dir link) = Done t (Ok tt).
Proof.
  intros Hd Hl Hdlt Hllt. unfold may_follow_link. cbn [Static.run]. unfold answer at 1. cbn [sem].
  rewrite (run_bindR_ok _ _ _ _ _ (run_fstatat _ _ _ Hd Hdlt)), (run_bindR_ok _ _ _ _ _ (run_fstatat _ _ _ Hl Hllt)).
  cbn [st_uid as_num z2n Z.to_N]. rewrite (N.eqb_refl 0), orb_true_r. reflexivity.
Qed.

Lemma run_rc_drop t fd r n : rc_get fd r = S n ->
  run t (rc_drop fd r) = Done (match n with O => tdel t fd | S _ => t end) (rc_set fd n r).
Proof. intro H. unfold rc_drop. rewrite H. destruct n; reflexivity. Qed.

Lemma run_rc_drop_total t fd r : exists t' r', run t (rc_drop fd r) = Done t' r'.
Proof.
  unfold rc_drop. destruct (rc_get fd r) as [|[|n]]; eexists; eexists; reflexivity.
Qed.

(* the two Rc handles of the walk are either the same one (count 2) or two distinct
   ones (count 1 each) *)
Definition rc_ok (root cur : Z) (refs : refs) : Prop :=
  (cur = root /\ rc_get root refs = 2%nat) \/
  (cur <> root /\ rc_get cur refs = 1%nat /\ rc_get root refs = 1%nat).

(* a state of opath::resolve's walk: no symlink stack (that is resolve_partial's) *)
Definition mk (root cur : Z) (exp : list bytes) (refs : refs) : wst :=
  {| w_root := root; w_cur := cur; w_exp := exp; w_refs := refs; w_stack := None |}.

Definition path_of (o : nat) (exp : list bytes) : Prop := FSModel.descend s ROOT exp = Some o.

Lemma path_root : path_of ROOT [].
Proof. reflexivity. Qed.

Lemma descend_lt e : forall c o, (c < PB s)%nat -> FSModel.descend s c e = Some o -> (o < PB s)%nat.
Proof.
  destruct Hclosed as (_ & Hl & _).
  induction e as [|n e IH]; intros c o Hc H; cbn [FSModel.descend] in H; [injection H as <-; exact Hc|].
  destruct (FSModel.lookup s c n) as [d|] eqn:El; [|discriminate]. exact (IH d o (Hl c n d El) H).
Qed.

Lemma path_lt o exp : path_of o exp -> (o < PB s)%nat.
Proof. destruct Hclosed as (H0 & _). apply descend_lt, H0. Qed.

(* what every step of the walk keeps: the descriptors are right, the procfs handle is
   untouched, and the current object is the one at [exp] below the root *)
Record WInv (t : fdt) (root cur : Z) (exp : list bytes) (refs : refs) (o : nat) : Prop := {
  wi_root : tget t root = Some ROOT;
  wi_cur : tget t cur = Some o;
  wi_rc : rc_ok root cur refs;
  wi_frame : Frame s F t;
  wi_path : path_of o exp;
}.

Lemma WInv_new t root cur exp refs o d : WInv t root cur exp refs o -> WInv ((fresh t, d) :: t) root cur exp refs o.
Proof.
  intros [Hr Hc Hrc Hfr Hp]. split; [apply tget_new_old, Hr|apply tget_new_old, Hc|exact Hrc|apply frame_new, Hfr|exact Hp].
Qed.

Lemma WInv_del t root cur exp refs o fd d :
  WInv t root cur exp refs o -> tget t fd = Some d -> (d < PB s)%nat -> fd <> root -> fd <> cur ->
  WInv (tdel t fd) root cur exp refs o.
Proof.
  intros [Hr Hc Hrc Hfr Hp] Hfd Hd Hnr Hnc.
  split; [| |exact Hrc|exact (frame_del t fd d Hfr Hfd Hd)|exact Hp]; rewrite tget_del_other by congruence; assumption.
Qed.

(* drop(root): current keeps its descriptor and is left with the only reference *)
Lemma run_drop_root t root cur refs : rc_ok root cur refs ->
  exists t' refs', run t (rc_drop root refs) = Done t' refs' /\
                   rc_get cur refs' = 1%nat /\ tget t' cur = tget t cur.
Proof.
  intros [[-> H2]|(Hne & H1c & H1r)].
  - rewrite (run_rc_drop t root refs 1 H2). eexists; eexists; split; [reflexivity|]. split; [apply rc_get_set_same|reflexivity].
  - rewrite (run_rc_drop t root refs 0 H1r). eexists; eexists; split; [reflexivity|]. split.
    + rewrite rc_get_set_other by exact Hne. exact H1c.
    + apply tget_del_other, Hne.
Qed.

(* current = Rc::new(next): next is a new descriptor, open on the object at [exp] *)
Lemma run_set_cur_fresh t root cur exp0 exp1 refs o nxt o' exp :
  WInv t root cur exp0 refs o -> tget t nxt = Some o' -> nxt <> root -> nxt <> cur -> path_of o' exp ->
  exists t' refs',
    run t (set_cur (mk root cur exp1 refs) nxt true exp None) = Done t' (mk root nxt exp refs') /\
    WInv t' root nxt exp refs' o'.
Proof.
  intros [Hr Hc Hrc Hfr Hp] Hn Hnr Hnc Hp'. unfold set_cur, mk. cbn [w_refs w_cur w_root].
  destruct Hrc as [[-> H2]|(Hne & H1c & H1r)].
  - (* current aliases the root *)
    rewrite run_bind, (run_rc_drop t root (rc_set nxt 1 refs) 1)
      by (rewrite rc_get_set_other by congruence; exact H2).
    eexists; eexists; split; [reflexivity|]. split; [exact Hr|exact Hn| |exact Hfr|exact Hp']. right.
    split; [exact Hnr|split].
    + rewrite rc_get_set_other by congruence. apply rc_get_set_same.
    + apply rc_get_set_same.
  - rewrite run_bind, (run_rc_drop t cur (rc_set nxt 1 refs) 0)
      by (rewrite rc_get_set_other by congruence; exact H1c).
    eexists; eexists; split; [reflexivity|].
    split; [| | |exact (frame_del t cur o Hfr Hc (path_lt o exp0 Hp))|exact Hp'].
    + rewrite tget_del_other by congruence. exact Hr.
    + rewrite tget_del_other by congruence. exact Hn.
    + right. split; [exact Hnr|split].
      * rewrite rc_get_set_other by congruence. apply rc_get_set_same.
      * rewrite !rc_get_set_other by congruence. exact H1r.
Qed.

(* current = Rc::clone(&root) *)
Lemma run_set_cur_root t root cur exp0 exp1 refs o exp :
  WInv t root cur exp0 refs o ->
  exists t' refs',
    run t (set_cur (mk root cur exp1 refs) root false exp None) = Done t' (mk root root exp refs') /\
    WInv t' root root [] refs' ROOT /\ (forall fd, fd <> cur -> tget t' fd = tget t fd).
Proof.
  intros [Hr Hc Hrc Hfr Hp]. unfold set_cur, mk, rc_inc. cbn [w_refs w_cur w_root].
  destruct Hrc as [[-> H2]|(Hne & H1c & H1r)].
  - rewrite H2. rewrite run_bind, (run_rc_drop t root (rc_set root 3 refs) 2) by apply rc_get_set_same.
    eexists; eexists; split; [reflexivity|]. split; [|intros; reflexivity].
    split; [exact Hr|exact Hr| |exact Hfr|exact path_root]. left.
    split; [reflexivity|apply rc_get_set_same].
  - rewrite H1r. rewrite run_bind, (run_rc_drop t cur (rc_set root 2 refs) 0)
      by (rewrite rc_get_set_other by congruence; exact H1c).
    eexists; eexists; split; [reflexivity|]. split; [|intros; apply tget_del_other; assumption].
    assert (Hr' : tget (tdel t cur) root = Some ROOT) by (rewrite tget_del_other by congruence; exact Hr).
    split; [exact Hr'|exact Hr'| |exact (frame_del t cur o Hfr Hc (path_lt o exp0 Hp))|exact path_root]. left.
    split; [reflexivity|]. rewrite rc_get_set_other by congruence. apply rc_get_set_same.
Qed.

(* an error outcome: either an error proper, or a partial result that carries the
   error and whose handle is the only reference (Rc::try_unwrap will succeed) *)
Definition fails (w : wres) (e : ekind) : Prop :=
  r_out w = Err e \/
  exists fd rem, r_out w = Ok (Partial fd rem e) /\ rc_get fd (r_refs w) = 1%nat.

(* Two types are called wres: OpathM.wres, the record the program's walk returns ([w] below),
   and FSModel.wres, the answer of the pure walk ([ans] below). *)

(* the errno a failing pure walk stands for: an exhausted link budget is ELOOP *)
Definition walk_errno_of (ans : FSModel.wres) : N := match ans with FSModel.WErr n => n | _ => ELOOP end.

(* the program's result [w], in table [t'], is what the pure walk answered *)
Definition ans_ok (t' : fdt) (w : wres) (ans : FSModel.wres) : Prop :=
  match ans with
  | FSModel.WOk o => exists fd, r_out w = Ok (Complete fd) /\ tget t' fd = Some o /\ rc_get fd (r_refs w) = 1%nat
  | _ => fails w (OsError (walk_errno_of ans))
  end.

Definition Res (out : outcome wres) (ans : FSModel.wres) : Prop :=
  exists t' w, out = Done t' w /\ ans_ok t' w ans.

Definition FailsWith (out : outcome wres) (e : ekind) : Prop :=
  exists t' w, out = Done t' w /\ fails w e.

Lemma run_opt_close t (next : option Z) :
  exists t', run t (match next with Some n => close n | None => Ret tt end) = Done t' tt.
Proof. destruct next; eexists; reflexivity. Qed.

Lemma run_bail t st next e : FailsWith (run t (bail st next e)) e.
Proof.
  unfold bail. rewrite run_bind. destruct (run_opt_close t next) as [t1 ->].
  rewrite run_bind. destruct (run_rc_drop_total t1 (w_cur st) (w_refs st)) as (t2 & r2 & ->).
  rewrite run_bind. destruct (run_rc_drop_total t2 (w_root st) r2) as (t3 & r3 & ->).
  eexists; eexists; split; [reflexivity|left; reflexivity].
Qed.

Lemma run_ret_partial t root cur exp refs next rem e :
  rc_ok root cur refs -> FailsWith (run t (ret_partial (mk root cur exp refs) next rem e)) e.
Proof.
  intro Hrc. unfold ret_partial, mk. cbn [w_root w_cur w_refs w_stack].
  rewrite run_bind. destruct (run_opt_close t next) as [t1 ->].
  destruct (run_drop_root t1 root cur refs Hrc) as (t2 & refs2 & Hrun & H1 & _). rewrite run_bind, Hrun.
  eexists; eexists; split; [reflexivity|]. right. exists cur, rem. split; [reflexivity|exact H1].
Qed.

(* one step of a run: [apply (Res_bind H)] with H : run t p = Done t' a goes on with f a in t' *)
Lemma Res_bind {A} t (p : prog A) (f : A -> prog wres) t' a ans :
  run t p = Done t' a -> Res (run t' (f a)) ans -> Res (run t (bind p f)) ans.
Proof. intros H H'. rewrite run_bind, H. exact H'. Qed.
Arguments Res_bind {A t p f t' a ans}.

Lemma run_final_check t root cur exp refs o :
  WInv t root cur exp refs o -> Res (run t (final_check_gen chk (mk root cur exp refs))) (FSModel.WOk o).
Proof.
  intros [Hr Hc Hrc Hfr Hexp]. unfold final_check_gen, mk. cbn [w_cur w_root w_exp w_refs w_stack].
  rewrite run_bind, (chk_ok t cur root exp o Hfr Hr Hc Hexp).
  destruct (run_drop_root t root cur refs Hrc) as (t2 & refs2 & Hrun & H1 & Hsame). rewrite run_bind, Hrun.
  eexists; eexists; split; [reflexivity|]. exists cur. cbn [finish r_out r_refs].
  split; [reflexivity|split]; [rewrite Hsame; exact Hc|exact H1].
Qed.

Definition comp_ok (c : bytes) : Prop := has_nul c = false /\ has_slash c = false.

Lemma descend_app c a b0 :
  FSModel.descend s c (a ++ b0) = match FSModel.descend s c a with Some d => FSModel.descend s d b0 | None => None end.
Proof.
  revert c. induction a as [|x a IH]; intro c; cbn [app FSModel.descend]; [reflexivity|].
  destruct (FSModel.lookup s c x); [apply IH|reflexivity].
Qed.

Lemma path_snoc o exp n c : path_of o exp -> FSModel.lookup s o n = Some c -> path_of c (exp ++ [n]).
Proof. unfold path_of. intros H L. rewrite descend_app, H. cbn [FSModel.descend]. rewrite L. reflexivity. Qed.

Lemma pop_snoc exp (n : bytes) : pop_exp (exp ++ [n]) = exp.
Proof. apply removelast_last. Qed.

Lemma path_parent o exp : path_of o exp -> exp <> [] -> FSModel.is_dir s o = true ->
  path_of (FSModel.parent_of s o) (pop_exp exp) /\ FSModel.is_dir s (FSModel.parent_of s o) = true /\
  length exp = S (length (pop_exp exp)).
Proof.
  intros H Hne Hd. destruct (exists_last Hne) as (e & n & ->). rewrite pop_snoc, last_length.
  unfold path_of in H. rewrite descend_app in H.
  destruct (FSModel.descend s ROOT e) as [d|] eqn:Ed; [|discriminate].
  cbn [FSModel.descend] in H. destruct (FSModel.lookup s d n) as [c|] eqn:El; [|discriminate].
  injection H as ->.
  destruct (FSProofs.lookup_dir_parent s df Hwf d n o El Hd) as (-> & Hpd & _).
  split; [exact Ed|split; [exact Hpd|reflexivity]].
Qed.

Lemma symlink_mode_body o :
  is_symlink_mode (mode_of (FSModel.kind_of s o)) = match FSModel.link_body s o with Some _ => true | None => false end.
Proof. unfold FSModel.link_body. destruct (FSModel.kind_of s o); reflexivity. Qed.

Lemma dir_no_body o : FSModel.is_dir s o = true -> FSModel.link_body s o = None.
Proof. unfold FSModel.is_dir, FSModel.link_body. destruct (FSModel.kind_of s o); try discriminate; reflexivity. Qed.

Lemma comp_ok_dot : comp_ok [DOT].
Proof. split; reflexivity. Qed.

Lemma raw_components_no_nul p : has_nul p = false -> Forall (fun c => has_nul c = false) (raw_components p).
Proof.
  induction p as [|c r IH]; intro H; cbn [raw_components]; [repeat constructor|].
  unfold has_nul in H. rewrite has_byte_cons in H. apply orb_false_iff in H. destruct H as [Hc Hr].
  specialize (IH Hr). destruct (N.eqb c SLASH); [constructor; [reflexivity|exact IH]|].
  destruct (raw_components r) as [|h t]; [repeat constructor; unfold has_nul; rewrite has_byte_cons, Hc; reflexivity|].
  inversion IH; subst. constructor; [|assumption].
  unfold has_nul. rewrite has_byte_cons, Hc. assumption.
Qed.

Lemma comp_ok_components p : has_nul p = false -> Forall comp_ok (raw_components p).
Proof.
  intro H. pose proof (raw_components_no_nul p H) as Hn. pose proof (raw_components_no_slash p) as Hs.
  rewrite Forall_forall in *. intros c Hc. split; [apply Hn, Hc|apply Hs, Hc].
Qed.

(* the program [g] on the components [comps] against the pure function [ge]: from every state
   of the walk, [g] ends as [ge] says of the current object and the depth of its path *)
Definition refines (g : wst -> list bytes -> prog wres) (ge : nat -> nat -> list bytes -> FSModel.wres)
           (comps : list bytes) : Prop :=
  forall t root cur exp refs o, WInv t root cur exp refs o ->
    Res (run t (g (mk root cur exp refs) comps)) (ge o (length exp) comps).

(* the recursive call used after a link body was spliced in, against the pure walk's *)
Definition follow_rel (follow : option (wst -> list bytes -> prog wres))
           (fe : option (nat -> nat -> list bytes -> FSModel.wres)) : Prop :=
  match follow, fe with
  | None, None => True
  | Some g, Some ge => forall comps, Forall comp_ok comps -> refines g ge comps
  | _, _ => False
  end.

(* what the pure walk makes of openat(o, part): [expn] is the expected path after the step,
   a link body is walked from the expected path with the link's name popped again *)
Definition open_res (fe : option (nat -> nat -> list bytes -> FSModel.wres))
           (einner : nat -> nat -> list bytes -> FSModel.wres) (rest : list bytes)
           (o : nat) (part : bytes) (expn : list bytes) : FSModel.wres :=
  match sem_open s o part with
  | inr e => FSModel.WErr e
  | inl d =>
      match FSModel.link_body s d with
      | None => einner d (length expn) rest
      | Some body =>
          if is_nil rest && nofollow then FSModel.WOk d
          else if nosym then FSModel.WErr FSModel.E_LOOP
          else match fe with
               | None => FSModel.WBudget
               | Some ge => if is_abs body then ge ROOT 0%nat (raw_components body ++ rest)
                            else ge o (length (pop_exp expn)) (raw_components body ++ rest)
               end
      end
  end.

(* [expn] is the path of what openat(o, part) opens, and if that is a link, [expn] with its
   last name popped is the path of [o] *)
Definition step_paths (o : nat) (part : bytes) (expn : list bytes) : Prop :=
  forall d, sem_open s o part = inl d ->
    path_of d expn /\ (forall body, FSModel.link_body s d = Some body -> path_of o (pop_exp expn)).

Lemma walk_open_static follow fe inner einner remaining rest t root cur exp refs o part expn :
  follow_rel follow fe -> refines inner einner rest ->
  Forall comp_ok rest -> WInv t root cur exp refs o -> comp_ok part -> step_paths o part expn ->
  Res (run t (walk_open fz ps chk fin nosym nofollow follow inner remaining rest (mk root cur expn refs) part))
      (open_res fe einner rest o part expn).
Proof.
  intros Hfollow Hinner Hrest Hinv [Hnul Hsl] Hstep.
  pose proof Hinv as [Hr Hc Hrc Hfr Hpath]. pose proof (path_lt o exp Hpath) as Holt.
  unfold walk_open, open_res, mk. rewrite Hsl. cbn [w_cur w_root w_exp w_refs w_stack].
  pose proof (run_openat t cur o part Hc Holt Hnul Hsl) as Hop.
  destruct (sem_open s o part) as [d|e] eqn:Eo.
  2:{ apply (Res_bind Hop), run_ret_partial, Hrc. }
  destruct (Hstep d Eo) as [Hexp Hpop]. pose proof (path_lt d expn Hexp) as Hdlt.
  (* the new descriptor leaves the walk's own as they were *)
  set (nx := fresh t) in Hop. set (t1 := (nx, d) :: t) in Hop.
  apply (Res_bind Hop).
  (* what happens on a link stays folded until the object is known to be one *)
  set (onlink := if is_nil rest && nofollow then _ else _).
  assert (Hn1 : tget t1 nx = Some d) by apply tget_new.
  assert (Hnr : nx <> root) by apply (fresh_neq t root ROOT Hr).
  assert (Hnc : nx <> cur) by apply (fresh_neq t cur o Hc).
  assert (Hinv1 : WInv t1 root cur exp refs o) by apply WInv_new, Hinv.
  pose proof Hinv1 as [Hr1 Hc1 _ Hfr1 _].
  (* the check after a '..' step *)
  eapply Res_bind.
  { destruct (is_dotdot part); [exact (chk_ok t1 nx root expn d Hfr1 Hr1 Hn1 Hexp)|reflexivity]. }
  apply (Res_bind (run_fstatat t1 nx d Hn1 Hdlt)). cbn [st_mode]. rewrite symlink_mode_body.
  (* current = next, where the walk goes on from what was opened *)
  destruct (run_set_cur_fresh t1 root cur exp expn refs o nx d expn Hinv1 Hn1 Hnr Hnc Hexp) as (t2 & refs2 & Hcur & Hinv2).
  destruct (FSModel.link_body s d) as [body|] eqn:Hb; cbn [negb].
  2:{ unfold stack_pop_part. cbn [w_stack w_refs w_root w_cur w_exp bind]. apply (Res_bind Hcur), Hinner, Hinv2. }
  specialize (Hpop body eq_refl). subst onlink.
  destruct (is_nil rest && nofollow).
  { (* trailing link, not followed: it is the result *)
    apply (Res_bind Hcur), run_final_check, Hinv2. }
  destruct nosym.
  { apply run_ret_partial, Hrc. }
  eapply Res_bind.
  { destruct (EMU_PS_ONLY_TRAILING && negb (ps_trailing rest)); [reflexivity|exact (run_may_follow t1 cur nx o d Hc1 Hn1 Holt Hdlt)]. }
  destruct follow as [g|], fe as [ge|]; try contradiction.
  2:{ apply run_ret_partial, Hrc. }
  destruct (Hlinks d body Hb) as [Hbnul Hblen].
  apply (Res_bind (run_readlinkat t1 nx d body Hn1 Hb Hblen)).
  assert (Hgood : Forall comp_ok (raw_components body ++ rest)) by (apply Forall_app; split; [apply comp_ok_components, Hbnul|exact Hrest]).
  destruct (is_abs body) eqn:Eabs.
  - (* an absolute body: current = root, then the link's descriptor is closed *)
    apply (Res_bind (run_is_magiclink t1 nx d Hn1 Hdlt)).
    destruct (run_set_cur_root t1 root cur exp (pop_exp expn) refs o [] Hinv1) as (t3 & refs3 & Hrun & Hinv3 & Hsame).
    apply (Res_bind Hrun), (Res_bind (run_close t3 nx)).
    assert (Hn2 : tget t3 nx = Some d) by (rewrite Hsame by exact Hnc; exact Hn1).
    exact (Hfollow _ Hgood (tdel t3 nx) root root [] refs3 ROOT (WInv_del t3 root root [] refs3 ROOT nx d Hinv3 Hn2 Hdlt Hnr Hnr)).
  - cbn [bind w_stack w_refs w_root w_cur w_exp]. apply (Res_bind (run_close t1 nx)).
    apply (Hfollow _ Hgood (tdel t1 nx) root cur (pop_exp expn) refs o).
    destruct (WInv_del t1 root cur exp refs o nx d Hinv1 Hn1 Hdlt Hnr Hnc) as [Hr' Hc' _ Hfr' _]. split; assumption.
Qed.

Lemma is_dot_eq p : is_dot p = true -> p = [DOT].
Proof. unfold is_dot. apply beq_true_iff. Qed.
Lemma is_dotdot_eq p : is_dotdot p = true -> p = [DOT; DOT].
Proof. unfold is_dotdot. apply beq_true_iff. Qed.

Lemma sem_open_dot o : sem_open s o [DOT] = if FSModel.is_dir s o then inl o else inr ENOTDIR.
Proof. unfold sem_open, open1. destruct (FSModel.is_dir s o); reflexivity. Qed.
Lemma sem_open_dotdot o : sem_open s o [DOT; DOT] = if FSModel.is_dir s o then inl (FSModel.parent_of s o) else inr ENOTDIR.
Proof. unfold sem_open, open1. destruct (FSModel.is_dir s o); reflexivity. Qed.
Lemma sem_open_name o n : is_dot n = false -> is_dotdot n = false ->
  sem_open s o n = if FSModel.is_dir s o
                   then match FSModel.lookup s o n with Some c => inl c | None => inr (FSModel.name_err n) end
                   else inr ENOTDIR.
Proof. intros H1 H2. unfold sem_open, open1. rewrite H1, H2. destruct (FSModel.is_dir s o); reflexivity. Qed.

(* The three kinds of component.  For each: what the pure walk does with it is what it makes
   of the one openat the program issues, and the expected path the program has by then is right. *)

(* "" and ".": openat(cur, ".") *)
Lemma ebody_dot fe o (exp rest : list bytes) (c : bytes) : path_of o exp -> is_nil c || is_dot c = true ->
  FSModel.ebody s nofollow nosym fe o (length exp) (c :: rest) = open_res fe (FSModel.ebody s nofollow nosym fe) rest o [DOT] exp /\
  step_paths o [DOT] exp.
Proof.
  intros Hpath H. cbn [FSModel.ebody]. rewrite H. unfold open_res, step_paths. rewrite sem_open_dot.
  destruct (FSModel.is_dir s o) eqn:Ed; [|split; [reflexivity|discriminate]].
  rewrite (dir_no_body o Ed). split; [reflexivity|]. intros d E. injection E as <-.
  split; [exact Hpath|]. rewrite (dir_no_body o Ed). discriminate.
Qed.

Lemma ebody_dotdot fe o (exp rest : list bytes) : path_of o exp -> exp <> [] ->
  FSModel.ebody s nofollow nosym fe o (length exp) (@cons bytes [DOT; DOT] rest) =
    open_res fe (FSModel.ebody s nofollow nosym fe) rest o [DOT; DOT] (pop_exp exp) /\
  step_paths o [DOT; DOT] (pop_exp exp).
Proof.
  intros Hpath Hne. cbn [FSModel.ebody]. change (is_nil [DOT; DOT] || is_dot [DOT; DOT]) with false.
  change (is_dotdot [DOT; DOT]) with true. cbv iota.
  unfold open_res, step_paths. rewrite sem_open_dotdot.
  destruct (FSModel.is_dir s o) eqn:Ed.
  - destruct (path_parent o exp Hpath Hne Ed) as (Hpp & Hpd & ->). rewrite (dir_no_body _ Hpd).
    split; [reflexivity|]. intros d E. injection E as <-. split; [exact Hpp|]. rewrite (dir_no_body _ Hpd). discriminate.
  - destruct exp; [contradiction|]. split; [reflexivity|discriminate].
Qed.

Lemma ebody_name fe o (exp rest : list bytes) (c : bytes) : path_of o exp -> is_nil c || is_dot c = false -> is_dotdot c = false ->
  FSModel.ebody s nofollow nosym fe o (length exp) (c :: rest) =
    open_res fe (FSModel.ebody s nofollow nosym fe) rest o c (exp ++ [c]) /\
  step_paths o c (exp ++ [c]).
Proof.
  intros Hpath H Hdd. cbn [FSModel.ebody]. rewrite H, Hdd. apply orb_false_iff in H. destruct H as [_ Hd].
  unfold open_res, step_paths. rewrite (sem_open_name o c Hd Hdd), pop_snoc, last_length.
  destruct (FSModel.is_dir s o); cbn [negb]; [|split; [reflexivity|discriminate]].
  destruct (FSModel.lookup s o c) as [d|] eqn:El; [|split; [reflexivity|discriminate]].
  split; [reflexivity|]. intros d' E. injection E as <-. split; [exact (path_snoc o exp c d Hpath El)|intros; exact Hpath].
Qed.

Lemma walk_body_static follow fe : follow_rel follow fe ->
  forall comps, Forall comp_ok comps -> refines (walk_body fz ps chk fin nosym nofollow follow) (FSModel.ebody s nofollow nosym fe) comps.
Proof.
  intros Hfollow comps Hgood. induction Hgood as [|part0 rest Hg0 Hgrest IH]; intros t root cur exp refs o Hinv.
  { apply run_final_check, Hinv. }
  pose proof (wi_path _ _ _ _ _ _ Hinv) as Hpath.
  (* one openat, by walk_open_static *)
  pose proof (fun part expn => walk_open_static follow fe _ _ (join_slash (part0 :: rest)) rest t root cur exp refs o part expn
                                 Hfollow IH Hgrest Hinv) as Hopen.
  assert (Hdot : forall c : bytes, is_nil c || is_dot c = true ->
            Res (run t (walk_open fz ps chk fin nosym nofollow follow (walk_body fz ps chk fin nosym nofollow follow)
                          (join_slash (part0 :: rest)) rest (mk root cur exp refs) [DOT]))
                (FSModel.ebody s nofollow nosym fe o (length exp) (c :: rest))).
  { intros c Hc. destruct (ebody_dot fe o exp rest c Hpath Hc) as [-> Hst]. exact (Hopen [DOT] exp comp_ok_dot Hst). }
  cbn [walk_body]. unfold mk. cbn [w_exp w_root w_cur w_refs w_stack].
  destruct (is_nil part0) eqn:Enil; [apply Hdot; rewrite Enil; reflexivity|].
  destruct (is_dot part0) eqn:Edot.
  { pose proof (is_dot_eq _ Edot) as ->. apply Hdot. reflexivity. }
  destruct (is_dotdot part0) eqn:Edd.
  { apply is_dotdot_eq in Edd. subst part0. destruct exp as [|e0 exp'].
    - (* at the root: current = root *)
      change (FSModel.ebody s nofollow nosym fe o (length []) ([DOT; DOT] :: rest)) with (FSModel.ebody s nofollow nosym fe ROOT 0 rest).
      unfold stack_pop_part. cbn [w_stack w_refs w_root w_cur w_exp bind].
      destruct (run_set_cur_root t root cur [] [] refs o [] Hinv) as (t2 & refs2 & Hrun & Hinv2 & _).
      exact (Res_bind Hrun (IH t2 root root [] refs2 ROOT Hinv2)).
    - destruct (ebody_dotdot fe o (e0 :: exp') rest Hpath ltac:(discriminate)) as [-> Hst].
      exact (Hopen [DOT; DOT] (pop_exp (e0 :: exp')) (conj eq_refl eq_refl) Hst). }
  assert (Hnd : is_nil part0 || is_dot part0 = false) by (rewrite Enil, Edot; reflexivity).
  destruct (ebody_name fe o exp rest part0 Hpath Hnd Edd) as [-> Hst].
  exact (Hopen part0 (exp ++ [part0]) Hg0 Hst).
Qed.

Lemma walk_gen_static bd :
  follow_rel (Some (walk_gen fz ps chk fin (S bd) nosym nofollow)) (Some (FSModel.ewalk_q s nofollow nosym bd)).
Proof.
  induction bd as [|b IH]; [exact (walk_body_static None None I)|].
  exact (walk_body_static (Some (walk_gen fz ps chk fin (S b) nosym nofollow)) (Some (FSModel.ewalk_q s nofollow nosym b)) IH).
Qed.

Lemma max_links_S : N.to_nat MAX_SYMLINK_TRAVERSALS = S FSModel.EMU_LINKS.
Proof. reflexivity. Qed.

Lemma do_resolve_res t root path :
  Frame s F t -> tget t root = Some ROOT -> has_nul path = false ->
  exists t2 w, run t (do_resolve_gen fz ps chk root path nosym nofollow None) = Done t2 (Ok w) /\
               ans_ok t2 w (FSModel.ewalk s path nofollow nosym).
Proof.
  intros Hfr Hroot Hnul.
  unfold do_resolve_gen, FSModel.ewalk. rewrite (run_bindR_ok _ _ _ _ _ (run_dup t root ROOT Hroot)).
  set (rd := fresh t). set (t1 := (rd, ROOT) :: t).
  assert (Hrc : rc_ok rd rd [(rd, 2%nat)]).
  { left. split; [reflexivity|]. cbn [rc_get]. rewrite Z.eqb_refl. reflexivity. }
  assert (Hinv : WInv t1 rd rd [] [(rd, 2%nat)] ROOT).
  { split; [apply tget_new ..|exact Hrc|apply frame_new, Hfr|exact path_root]. }
  destruct (EMPTY_PATH_IS_ENOENT && is_nil path).
  - destruct (run_ret_partial t1 rd rd [] [(rd, 2%nat)] None [] (OsError ENOENT) Hrc) as (t2 & w & Hrun & Hf).
    exists t2, w. unfold mk in Hrun. rewrite run_bind, Hrun. split; [reflexivity|exact Hf].
  - rewrite max_links_S.
    destruct (walk_gen_static FSModel.EMU_LINKS _ (comp_ok_components path Hnul) t1 rd rd [] [(rd, 2%nat)] ROOT Hinv)
      as (t2 & w & Hrun & Hres).
    exists t2, w. unfold mk in Hrun. rewrite run_bind, Hrun. split; [reflexivity|exact Hres].
Qed.

(* Rc::try_unwrap and the drop of a partial result's handle: a failed walk is that error *)
Lemma resolve_fails t root path t2 w e :
  run t (do_resolve_gen fz ps chk root path nosym nofollow None) = Done t2 (Ok w) -> fails w e ->
  exists t', run t (resolve_gen fz ps chk root path nosym nofollow) = Done t' (Err e).
Proof.
  intros Hrun Hf. unfold resolve_gen. rewrite (run_bindR_ok _ _ _ _ _ Hrun).
  destruct Hf as [Hf|(fd & rem & Hf & Hrc)]; rewrite Hf; [eexists; reflexivity|].
  unfold unwrap_rc. rewrite Hrc. eexists; reflexivity.
Qed.

Theorem resolve_static t root path :
  Frame s F t -> tget t root = Some ROOT -> has_nul path = false ->
  match FSModel.ewalk s path nofollow nosym with
  | FSModel.WOk o => exists t' fd, run t (resolve_gen fz ps chk root path nosym nofollow) = Done t' (Ok fd) /\ tget t' fd = Some o
  | FSModel.WErr n => exists t', run t (resolve_gen fz ps chk root path nosym nofollow) = Done t' (Err (OsError n))
  | FSModel.WBudget => exists t', run t (resolve_gen fz ps chk root path nosym nofollow) = Done t' (Err (OsError ELOOP))
  end.
Proof.
  intros Hfr Hroot Hnul. destruct (do_resolve_res t root path Hfr Hroot Hnul) as (t2 & w & Hrun & Hres).
  destruct (FSModel.ewalk s path nofollow nosym) as [o|n|]; [|exact (resolve_fails t root path t2 w _ Hrun Hres) ..].
  destruct Hres as (fd & Hout & Hfd & Hrc).
  unfold resolve_gen. rewrite (run_bindR_ok _ _ _ _ _ Hrun), Hout. unfold unwrap_rc. rewrite Hrc.
  exists t2, fd. split; [reflexivity|exact Hfd].
Qed.

End SP.

Lemma resolve_is_gen fz o2 pfuel gh ps root path nosym nofollow :
  opath_resolve_root fz o2 pfuel gh ps root path nosym nofollow =
  resolve_gen fz ps (check_current fz o2 pfuel gh) root path nosym nofollow.
Proof. reflexivity. Qed.

Lemma run_peq {A} s rp (p q : prog A) : peq p q -> forall t, run s rp t p = run s rp t q.
Proof.
  induction 1 as [a|c k k' _ IH|x|]; intro t; cbn [run]; try reflexivity.
  destruct (answer s rp t c) as [t' r]. apply IH.
Qed.

(* RootRef::resolve_parent + name on the emulated backend, on a static tree: the
   descriptor the *at call will be made on is open on exactly the object the pure
   walk of the prefix ends on; the name is path_split's last component *)
Theorem parent_and_name_static s rp F fz o2 pfuel gh ps df rs t root path dirp name :
  closed s -> fz <> 0%nat -> chk_static_ok s rp F (check_current fz o2 pfuel gh) -> FSProofs.wf s df -> links_ok s ->
  rs_kernel rs = false ->
  path_split path = Some (Ok (dirp, Some name)) -> has_nul dirp = false ->
  Frame s F t -> tget t root = Some ROOT ->
  match FSModel.ewalk s dirp false (has (rs_flags rs) RESOLVE_NO_SYMLINKS) with
  | FSModel.WOk o => exists t' fd, run s rp t (parent_and_name fz o2 pfuel gh ps rs root path) = Done t' (Ok (fd, name)) /\ tget t' fd = Some o
  | FSModel.WErr n => exists t', run s rp t (parent_and_name fz o2 pfuel gh ps rs root path) = Done t' (Err (OsError n))
  | FSModel.WBudget => exists t', run s rp t (parent_and_name fz o2 pfuel gh ps rs root path) = Done t' (Err (OsError ELOOP))
  end.
Proof.
  intros Hcl Hfz Hchk Hwf Hl Hk Hsplit Hnul Hfr Hroot.
  pose proof (parent_and_name_shape fz o2 pfuel gh ps rs root path) as Hshape. rewrite Hsplit in Hshape.
  destruct Hshape as (Hpeq & _ & _).
  rewrite (run_peq s rp _ _ Hpeq t). unfold bindR. rewrite (run_bind s rp).
  unfold r_resolve. rewrite Hk, resolve_is_gen.
  pose proof (resolve_static s rp F Hcl fz Hfz _ Hchk df Hwf Hl ps (has (rs_flags rs) RESOLVE_NO_SYMLINKS) false t root dirp Hfr Hroot Hnul) as H.
  destruct (FSModel.ewalk s dirp false (has (rs_flags rs) RESOLVE_NO_SYMLINKS)) as [o|n|].
  - destruct H as (t' & fd & -> & Hfd). exists t', fd. split; [reflexivity|exact Hfd].
  - destruct H as (t' & ->). exists t'. reflexivity.
  - destruct H as (t' & ->). exists t'. reflexivity.
Qed.

(* ---- check_current on the static kernel ------------------------------------------------
   The premise [chk_static_ok] reduced to the kernel's d_path contract: if the routine
   [g] that reads the kernel's rendering of a descriptor (as_unsafe_path) returns, for a
   descriptor open on the object with path [exp] below the root, an absolute path whose
   components are the root directory's components followed by [exp], then check_current
   built on [g] is a check routine as the refinement theorem needs it. *)
Definition names_ok (s : fs) : Prop := forall d n c, FSModel.lookup s d n = Some c -> name_ok n.

Definition getpath_ok (s : fs) (rp : bytes) (F : list (Z * nat)) (rootcomps : list bytes) (g : Z -> prog (result bytes ekind)) : Prop :=
  forall t fd o exp, Frame s F t -> tget t fd = Some o -> FSModel.descend s ROOT exp = Some o ->
    exists p, run s rp t (g fd) = Done t (Ok p) /\ is_abs p = true /\ nf p = rootcomps ++ exp.

Lemma descend_names s : names_ok s -> forall exp c o, FSModel.descend s c exp = Some o -> Forall name_ok exp.
Proof.
  intros Hn exp. induction exp as [|n exp IH]; intros c o H; [constructor|].
  cbn [FSModel.descend] in H. destruct (FSModel.lookup s c n) as [d|] eqn:El; [|discriminate].
  constructor; [exact (Hn c n d El)|exact (IH d o H)].
Qed.

Lemma is_abs_push_all cs : forall acc, is_abs acc = true -> is_abs (push_all acc cs) = true.
Proof.
  induction cs as [|c t IH]; intros acc H; cbn [push_all]; [exact H|]. apply IH.
  destruct acc as [|x acc]; [discriminate|]. cbn [rev].
  destruct (rev acc ++ [x]) as [|y l] eqn:E; [apply app_eq_nil in E; destruct E; discriminate|].
  destruct (N.eqb y SLASH); cbn [app is_abs]; exact H.
Qed.

Theorem check_current_static s rp F rootcomps g :
  names_ok s -> getpath_ok s rp F rootcomps g -> chk_static_ok s rp F (check_current_gen g).
Proof.
  intros Hnames Hg t cur root exp o Hfr Hroot Hcur Hexp.
  destruct (Hg t root ROOT [] Hfr Hroot eq_refl) as (p1 & Hrun1 & Habs1 & Hnf1). rewrite app_nil_r in Hnf1.
  destruct (Hg t cur o exp Hfr Hcur Hexp) as (p2 & Hrun2 & Habs2 & Hnf2).
  assert (E : path_eq p2 (push_all p1 ([DOT] :: exp)) = true).
  { apply path_eq_of_nf; [exact Habs2|apply is_abs_push_all, Habs1|].
    rewrite (nf_push_dot p1 exp (descend_names s Hnames exp ROOT o Hexp)), Hnf1, Hnf2. reflexivity. }
  unfold check_current_gen.
  rewrite (run_bindR_ok s rp _ _ _ _ _ Hrun1), (run_bindR_ok s rp _ _ _ _ _ Hrun2), E. cbn [negb].
  rewrite (run_bindR_ok s rp _ _ _ _ _ Hrun1), (path_eq_of_nf p1 p1 Habs1 Habs1 eq_refl). reflexivity.
Qed.
