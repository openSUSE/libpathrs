(* CheckProofs.v -- C02: what a passing check_current means.
   check_current (imp.rs:67-132) reads the kernel's rendering of the root
   descriptor and of the current descriptor (/proc/thread-self/fd/N) and compares
   PathBufs.  The theorem below says what that comparison establishes, for ALL
   byte strings: the current path consists of exactly the root path's components
   followed by the expected components.  Together with the kernel's d_path contract
   (the rendering is the true path of the object at that moment) and a root whose
   own path is not renamed, this is "the object is inside the root, at the place
   the walk believes it to be". *)
From PV Require Import OpathM PathProofs Hoare.

Definition keep (c : bytes) : bool := negb (is_nil c || is_dot c).
(* the normalised component list of std::path::Path *)
Definition nf (p : bytes) : list bytes := filter keep (raw_components p).

Lemma list_beq_true_iff x y : list_beq x y = true <-> x = y.
Proof.
  revert y. induction x as [|a x IH]; intros [|c y]; cbn [list_beq]; split; try discriminate; try reflexivity.
  - intro H. apply andb_true_iff in H as [H1 H2]. apply beq_true_iff in H1. apply IH in H2. subst. reflexivity.
  - intro H. injection H as -> ->. rewrite beq_refl. apply IH. reflexivity.
Qed.

(* PathBuf equality: the same normalised components and absoluteness -- and nothing else
   when the paths are absolute *)
Lemma path_eq_nf p q : path_eq p q = true -> nf p = nf q /\ is_abs p = is_abs q.
Proof.
  unfold path_eq, path_norm. intro H. apply andb_true_iff in H as [H Hl]. apply andb_true_iff in H as [Hr _].
  split; [apply list_beq_true_iff, Hl|]. apply Bool.eqb_prop, Hr.
Qed.

Lemma path_eq_of_nf p q : is_abs p = true -> is_abs q = true -> nf p = nf q -> path_eq p q = true.
Proof.
  intros Hp Hq Hn. unfold path_eq, path_norm. rewrite Hp, Hq. cbn [negb andb Bool.eqb].
  apply list_beq_true_iff, Hn.
Qed.

Lemma nf_slash a c : nf (a ++ SLASH :: c) = nf a ++ nf c.
Proof. unfold nf. rewrite raw_components_slash, filter_app. reflexivity. Qed.

(* a path that ends in a separator: the empty last component is dropped *)
Lemma nf_trailing a c : nf ((a ++ [SLASH]) ++ c) = nf (a ++ [SLASH]) ++ nf c.
Proof.
  rewrite <- app_assoc. cbn [app]. rewrite nf_slash. unfold nf at 3.
  rewrite raw_components_slash, filter_app. cbn [raw_components filter keep is_nil orb negb].
  rewrite app_nil_r. reflexivity.
Qed.

Lemma nf_nil : nf [] = [].
Proof. reflexivity. Qed.

(* PathBuf::push of relative components, as modelled by push_all *)
Lemma nf_push_all cs : forall acc, nf (push_all acc cs) = nf acc ++ concat (map nf cs).
Proof.
  induction cs as [|c t IH]; intro acc; cbn [push_all map concat]; [rewrite app_nil_r; reflexivity|].
  rewrite IH, app_assoc. f_equal.
  (* the accumulated path by its last byte *)
  rewrite <- (rev_involutive acc). generalize (rev acc). intros [|x l]; rewrite rev_involutive; [reflexivity|].
  cbn [rev]. destruct (N.eqb_spec x SLASH) as [->|Hne]; [apply nf_trailing|apply nf_slash].
Qed.

(* the ASCII digits '0' .. '9' *)
Definition digit (c : N) : Prop := 48 <= c < 58.

Lemma dec_fuel_digits f : forall n acc, Forall digit acc -> Forall digit (dec_fuel f n acc).
Proof.
  induction f as [|f IH]; intros n acc Ha; cbn [dec_fuel]; [exact Ha|].
  assert (Hd : Forall digit ((48 + n mod 10) :: acc)).
  { constructor; [|exact Ha]. pose proof (N.mod_lt n 10 ltac:(discriminate)) as H. revert H.
    generalize (n mod 10). unfold digit. lia. }
  destruct (N.eqb (n / 10) 0); [exact Hd|apply IH, Hd].
Qed.

Lemma dec_digits n : Forall digit (dec n).
Proof. apply dec_fuel_digits. constructor. Qed.

Lemma dec_fuel_nonempty f : forall n acc, acc <> [] -> dec_fuel f n acc <> [].
Proof.
  induction f as [|f IH]; intros n acc Ha; cbn [dec_fuel]; [exact Ha|].
  destruct (N.eqb (n / 10) 0); [discriminate|apply IH; discriminate].
Qed.

Lemma dec_nonempty n : dec n <> [].
Proof. unfold dec. cbn [dec_fuel]. destruct (N.eqb (n / 10) 0); [discriminate|apply dec_fuel_nonempty; discriminate]. Qed.

Lemma digits_no_byte c l : Forall digit l -> ~ digit c -> has_byte c l = false.
Proof.
  intros Hl Hc. induction Hl as [|x l Hx _ IH]; [reflexivity|]. rewrite has_byte_cons, IH, orb_false_r.
  apply N.eqb_neq. intros ->. exact (Hc Hx).
Qed.

(* a directory-entry name: not empty, no separator, not "." *)
Definition name_ok (c : bytes) : Prop := c <> [] /\ has_slash c = false /\ is_dot c = false.

Lemma nf_name c : name_ok c -> nf c = [c].
Proof.
  intros (Hne & Hsl & Hd). unfold nf. rewrite (raw_components_noslash_single c Hsl).
  cbn [filter]. unfold keep. rewrite Hd. destruct c; [contradiction|reflexivity].
Qed.

Lemma concat_nf_names exp : Forall name_ok exp -> concat (map nf exp) = exp.
Proof.
  induction 1 as [|c t Hc _ IH]; [reflexivity|]. cbn [map concat]. rewrite (nf_name c Hc), IH. reflexivity.
Qed.

(* root_path.join(".").join(expected): the "." is normalised away *)
Lemma nf_push_dot p exp : Forall name_ok exp -> nf (push_all p ([DOT] :: exp)) = nf p ++ exp.
Proof. intro H. rewrite nf_push_all. cbn [map concat]. rewrite (concat_nf_names exp H). reflexivity. Qed.

(* the comparison check_current makes (imp.rs:93-108) *)
Theorem check_passes_means root_path cur_path exp :
  path_eq cur_path (push_all root_path ([DOT] :: exp)) = true ->
  Forall name_ok exp ->
  nf cur_path = nf root_path ++ exp.
Proof. intros H Hexp. apply path_eq_nf in H as [H _]. rewrite H. apply nf_push_dot, Hexp. Qed.

(* ... and it really is the comparison check_current makes: with ANY routine [g]
   reading the kernel's rendering of a descriptor, the check passes only if the
   rendering of the current descriptor is root ++ expected and the root's
   rendering was the same before and after *)
Section Gen.
Variable g : Z -> prog (result bytes ekind).
Definition check_current_gen (current root : Z) (expected : list bytes) : prog (result unit ekind) :=
  root_path <-? g root ;;
  let full_path := push_all root_path ([DOT] :: expected) in
  current_path <-? g current ;;
  if negb (path_eq current_path full_path) then Ret (Err SafetyViolation) else
  new_root_path <-? g root ;;
  if negb (path_eq root_path new_root_path) then Ret (Err SafetyViolation) else
  Ret (Ok tt).
End Gen.

(* [g0] reads one rendering with a single call (as_unsafe_path does the same through the
   procfs handle; its own discipline is C05/C07).  Over it props/C02.v states, for all answers,
   that the check passes only when the three renderings the kernel gave -- root, current,
   root again -- satisfy the two comparisons. *)
Definition g0 (fd : Z) : prog (result bytes ekind) :=
  Call (Readlink (dec (z2n fd))) (fun r => Ret (match as_bytes r with Ok bs => Ok bs | Err e => Err (OsError e) end)).

Lemma as_bytes_ok r bs : as_bytes r = Ok bs -> r = RBytes bs.
Proof. destruct r; cbn [as_bytes]; try discriminate. intro H. injection H as ->. reflexivity. Qed.

Lemma g0_spec fd h :
  spec (fun _ _ => True) (fun res h' => forall bs, res = Ok bs -> exists c, h' = (c, RBytes bs) :: h) h (g0 fd).
Proof.
  unfold g0. constructor; [exact I|]. intro r. constructor. intros bs E.
  destruct (as_bytes r) as [bs'|e] eqn:Ea; [|discriminate]. injection E as <-.
  rewrite (as_bytes_ok r bs' Ea). eexists; reflexivity.
Qed.

