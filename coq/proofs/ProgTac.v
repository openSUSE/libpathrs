(* ProgTac.v -- what every proof about model programs shares: the judgements that quantify over
   every kernel answer ([all_calls], [okp], [only_panics], [peq]) with their composition rules;
   facts about pieces of the model that several judgements use (FrozenFd, the symlink stack and
   its reference counts, the symlink budget of the two walks); the inversion of a finished replay. *)
From PV Require Import Replay PathProofs.

Lemma ac_bind {A B} (P : call -> Prop) (p : prog A) (f : A -> prog B) :
  all_calls P p -> (forall a, all_calls P (f a)) -> all_calls P (bind p f).
Proof.
  intros Hp Hf. induction Hp; cbn; [apply Hf|constructor; auto..].
Qed.

Lemma ac_weaken {A} (P Q : call -> Prop) (p : prog A) :
  (forall c, P c -> Q c) -> all_calls P p -> all_calls Q p.
Proof. intros HPQ Hp. induction Hp; constructor; auto. Qed.

Lemma ac_and {A} (P Q : call -> Prop) (p : prog A) :
  all_calls P p -> all_calls Q p -> all_calls (fun c => P c /\ Q c) p.
Proof.
  intros Hp. induction Hp as [a | c k Hc Hk IH | s | ]; intro Hq; inversion Hq; subst.
  - constructor.
  - constructor; [split; assumption|]. intro r.
    match goal with H : forall r, all_calls Q _ |- _ => apply IH, H end.
  - constructor.
  - constructor.
Qed.

(* ---- combined judgement: every call satisfies P, every reachable Panic site
   satisfies S, and the result satisfies Q ------------------------------------ *)
Inductive okp {A} (P : call -> Prop) (S : N -> Prop) (Q : A -> Prop) : prog A -> Prop :=
| ok_ret a : Q a -> okp P S Q (Ret a)
| ok_call c k : P c -> (forall r, okp P S Q (k r)) -> okp P S Q (Call c k)
| ok_panic s : S s -> okp P S Q (Panic s)
| ok_fuel : okp P S Q OutOfFuel.

Lemma okp_bind {A B} P S (Q1 : A -> Prop) (Q2 : B -> Prop) (p : prog A) (f : A -> prog B) :
  okp P S Q1 p -> (forall a, Q1 a -> okp P S Q2 (f a)) -> okp P S Q2 (bind p f).
Proof.
  intros Hp Hf. induction Hp as [a Ha | c k Hc Hk IH | s Hs | ]; cbn.
  - apply Hf, Ha.
  - constructor; [exact Hc|]. intro r. apply IH.
  - constructor. exact Hs.
  - constructor.
Qed.

Lemma okp_then {A B} P S (Q1 : A -> Prop) (Q2 : B -> Prop) (p : prog A) (q : prog B) :
  okp P S Q1 p -> okp P S Q2 q -> okp P S Q2 (p ;;; q).
Proof. intros Hp Hq. eapply okp_bind; [exact Hp|]. intros _ _. exact Hq. Qed.

Lemma okp_if {A} P S (Q : A -> Prop) (b : bool) (p q : prog A) :
  okp P S Q p -> okp P S Q q -> okp P S Q (if b then p else q).
Proof. destruct b; auto. Qed.

Lemma okp_mono {A} (P1 P2 : call -> Prop) (S1 S2 : N -> Prop) (Q1 Q2 : A -> Prop) (p : prog A) :
  (forall c, P1 c -> P2 c) -> (forall s, S1 s -> S2 s) -> (forall a, Q1 a -> Q2 a) ->
  okp P1 S1 Q1 p -> okp P2 S2 Q2 p.
Proof. intros HP HS HQ Hp. induction Hp; constructor; auto. Qed.

Lemma okp_weaken {A} P S (Q1 Q2 : A -> Prop) (p : prog A) :
  okp P S Q1 p -> (forall a, Q1 a -> Q2 a) -> okp P S Q2 p.
Proof. intros Hp H. exact (okp_mono _ _ _ _ _ _ _ (fun _ h => h) (fun _ h => h) H Hp). Qed.

Lemma okp_weaken_P {A} (P1 P2 : call -> Prop) S (Q : A -> Prop) (p : prog A) :
  (forall c, P1 c -> P2 c) -> okp P1 S Q p -> okp P2 S Q p.
Proof. intro H. exact (okp_mono _ _ _ _ _ _ _ H (fun _ h => h) (fun _ h => h)). Qed.

Lemma okp_all_calls {A} P S (Q : A -> Prop) (p : prog A) : okp P S Q p -> all_calls P p.
Proof. intro Hp. induction Hp; constructor; auto. Qed.

(* "only the Panic sites in S are reachable, whatever the answers are" *)
Inductive only_panics {A} (S : N -> Prop) : prog A -> Prop :=
| op_ret a : only_panics S (Ret a)
| op_call c k : (forall r, only_panics S (k r)) -> only_panics S (Call c k)
| op_panic s : S s -> only_panics S (Panic s)
| op_fuel : only_panics S OutOfFuel.

Lemma okp_only_panics {A} P S (Q : A -> Prop) (p : prog A) : okp P S Q p -> only_panics S p.
Proof. intro Hp. induction Hp; constructor; auto. Qed.

Lemma only_panics_none_no_panic {A} (p : prog A) : only_panics (fun _ => False) p -> no_panic p.
Proof. intro H. induction H; try constructor; auto. contradiction. Qed.

Definition okR {A E} (Qa : A -> Prop) (r : result A E) : Prop :=
  match r with Ok a => Qa a | Err _ => True end.

Lemma okp_err {A E} P S (Qa : A -> Prop) (e : E) : okp P S (okR Qa) (Ret (Err e)).
Proof. constructor. exact I. Qed.

(* Rust's `?`: an error of p is the error of the whole, and errors satisfy every [okR _] *)
Lemma okp_bindR {A B E} P S (Qa : A -> Prop) (Qb : B -> Prop)
      (p : prog (result A E)) (f : A -> prog (result B E)) :
  okp P S (okR Qa) p -> (forall a, Qa a -> okp P S (okR Qb) (f a)) -> okp P S (okR Qb) (bindR p f).
Proof.
  intros Hp Hf. unfold bindR. eapply okp_bind; [exact Hp|].
  intros [a|e] Hq; [apply Hf, Hq | apply okp_err].
Qed.

Lemma okp_map_err {A E F} P S (Qa : A -> Prop) (g : E -> F) (p : prog (result A E)) :
  okp P S (okR Qa) p -> okp P S (okR Qa) (map_err g p).
Proof.
  intro Hp. unfold map_err. eapply okp_bind; [exact Hp|].
  intros [a|e] Hq; constructor; exact Hq.
Qed.

Lemma okp_os {A} P S (Qa : A -> Prop) (p : prog (result A N)) :
  okp P S (okR Qa) p -> okp P S (okR Qa) (os p).
Proof. apply okp_map_err. Qed.

Lemma okp_os_bind {A B} P S (Qa : A -> Prop) (Q : B -> Prop) (p : prog (result A N))
      (k : result A ekind -> prog B) :
  okp P S (okR Qa) p -> (forall r, okR Qa r -> okp P S Q (k r)) -> okp P S Q (bind (os p) k).
Proof. intros Hp Hk. eapply okp_bind; [apply okp_os, Hp|exact Hk]. Qed.

Lemma okR_err {A E} (Qa : A -> Prop) (e : E) : okR Qa (Err e).
Proof. exact I. Qed.

(* ---- FrozenFd::from: error-text-only calls against the host /proc.  Proved once in this
   form; every judgement about [frozen] is a weakening of it. *)
Definition frozen_call (c : call) : Prop :=
  c = Gettid \/ (exists n, c = Fstatat AT_FDCWD (b "/proc/" ++ n) FSTATAT_FLAGS) \/
  (exists n, c = Readlink (b "/proc/" ++ n)).

Lemma frozen_okp fz : forall fd,
  okp frozen_call (eq PANIC_THREAD_SELF) (fun _ => True) (frozen fz fd).
Proof.
  induction fz as [|f IH]; intro fd; cbn [frozen]; [constructor|].
  constructor; [left; reflexivity|]. intro rt.
  induction (thread_self_cands (as_num rt)) as [|c rest IHc]; [constructor; reflexivity|].
  constructor; [right; left; eexists; reflexivity|]. intro r. destruct (as_stat r).
  - destruct (proc_subpath fd); [|constructor; exact I].
    constructor; [right; right; eexists; reflexivity|]. intro. constructor. exact I.
  - eapply okp_then; [apply IH|exact IHc].
Qed.

Lemma frozen_calls fz fd : all_calls frozen_call (frozen fz fd).
Proof. eapply okp_all_calls, frozen_okp. Qed.

Lemma unsnoc_app {A} (l init : list A) (t : A) : unsnoc l = Some (init, t) -> l = init ++ [t].
Proof.
  revert init. induction l as [|x r IH]; intro init; cbn [unsnoc]; [discriminate|].
  destruct r as [|y r']; [intro H; injection H as <- <-; reflexivity|].
  destruct (unsnoc (y :: r')) as [[i t']|]; [|discriminate].
  intro H; injection H as <- <-. rewrite (IH _ eq_refl). reflexivity.
Qed.

(* the descriptor a lookup result holds *)
Definition lookup_fd (l : lookup) : Z := match l with Complete fd => fd | Partial fd _ _ => fd end.

(* ---- the directories held by the symlink stack ------------------------------------------- *)
Definition sdirs (ss : sstack) : list Z := map se_dir ss.

Lemma sdirs_app a b0 : sdirs (a ++ b0) = sdirs a ++ sdirs b0.
Proof. apply map_app. Qed.

Lemma ss_do_pop_dirs st part st' : ss_do_pop st part = Ok st' -> sdirs st' = sdirs st.
Proof.
  unfold ss_do_pop. destruct (is_dot part); [intro H; injection H as <-; reflexivity|].
  destruct (unsnoc st) as [[init tail]|] eqn:E; [|discriminate].
  destruct (se_parts tail) as [|ex ps]; [discriminate|].
  destruct (beq ex part); [|discriminate].
  intro H; injection H as <-. rewrite (unsnoc_app _ _ _ E), !sdirs_app. reflexivity.
Qed.

Lemma ss_swap_link_dirs st part dir rem target st' :
  ss_swap_link st part dir rem target = Ok st' -> sdirs st' = sdirs st ++ [dir].
Proof.
  unfold ss_swap_link, ss_do_push. destruct (ss_do_pop st part) as [st1|e] eqn:E.
  - intro H; injection H as <-. rewrite sdirs_app, (ss_do_pop_dirs _ _ _ E). reflexivity.
  - destruct e; try discriminate. intro H; injection H as <-. apply sdirs_app.
Qed.

(* ---- the symlink budget of the two emulated walks: a property of the walk for every budget
   follows from one of the loop body, given it for the walk restarted after a link --------- *)
Lemma pwalk_budget_ind fz m fl rf (J : (Z -> list bytes -> prog (result Z ekind)) -> Prop) :
  (forall follow, (forall go, follow = Some go -> J go) -> J (pwalk_body fz m fl rf follow)) ->
  forall budget, J (pwalk fz budget m fl rf).
Proof.
  intros H budget. induction budget as [|bd IH]; cbn [pwalk]; apply H; [discriminate|].
  intros go Hgo. destruct bd; [discriminate|]. injection Hgo as <-. exact IH.
Qed.

Lemma walk_gen_budget_ind fz ps chk fin nosym nofollow (J : (wst -> list bytes -> prog wres) -> Prop) :
  (forall follow, (forall go, follow = Some go -> J go) -> J (walk_body fz ps chk fin nosym nofollow follow)) ->
  forall budget, J (walk_gen fz ps chk fin budget nosym nofollow).
Proof.
  intros H budget. induction budget as [|bd IH]; cbn [walk_gen]; apply H; [discriminate|].
  intros go Hgo. destruct bd; [discriminate|]. injection Hgo as <-. exact IH.
Qed.

(* ---- program equivalence (same calls, same continuations pointwise): program
   equality without functional extensionality ------------------------------------------ *)
Inductive peq {A} : prog A -> prog A -> Prop :=
| pe_ret a : peq (Ret a) (Ret a)
| pe_call c k k' : (forall r, peq (k r) (k' r)) -> peq (Call c k) (Call c k')
| pe_panic s : peq (Panic s) (Panic s)
| pe_fuel : peq OutOfFuel OutOfFuel.

Lemma peq_refl {A} (p : prog A) : peq p p.
Proof. induction p; constructor; auto. Qed.

Lemma peq_sym {A} (p q : prog A) : peq p q -> peq q p.
Proof. intro H. induction H; constructor; auto. Qed.

Lemma peq_trans {A} (p q r : prog A) : peq p q -> peq q r -> peq p r.
Proof.
  intro H. revert r. induction H as [a | c k k' Hk IH | s | ]; intros r Hr; inversion Hr; subst; try constructor.
  intro x. apply IH. match goal with H : forall r, peq (k' r) _ |- _ => apply H end.
Qed.

Lemma bind_assoc {A B C} (p : prog A) (f : A -> prog B) (g : B -> prog C) :
  peq (bind (bind p f) g) (bind p (fun x => bind (f x) g)).
Proof. induction p as [a | c k IH | s | ]; cbn; try constructor; [apply peq_refl|exact IH]. Qed.

Lemma peq_bind {A B} (p q : prog A) (f g : A -> prog B) :
  peq p q -> (forall a, peq (f a) (g a)) -> peq (bind p f) (bind q g).
Proof. intros H Hf. induction H; cbn; try constructor; auto. Qed.

Lemma bindR_assoc {A B C E} (p : prog (result A E)) (f : A -> prog (result B E)) (g : B -> prog (result C E)) :
  peq (bindR (bindR p f) g) (bindR p (fun x => bindR (f x) g)).
Proof.
  unfold bindR. eapply peq_trans; [apply bind_assoc|]. apply peq_bind; [apply peq_refl|].
  intros [a|e]; apply peq_refl.
Qed.

Lemma all_calls_peq {A} P (p q : prog A) : peq p q -> all_calls P p -> all_calls P q.
Proof.
  intro H. induction H as [a | c k k' Hk IH | s | ]; intro Hp; inversion Hp; subst; constructor; auto.
Qed.

(* ---- the Rc reference counts of the emulated walk ------------------------------------ *)

Lemma rc_get_set_same fd n r : rc_get fd (rc_set fd n r) = n.
Proof.
  induction r as [|[f m] r IH]; cbn [rc_set rc_get]; [rewrite Z.eqb_refl; reflexivity|].
  destruct (Z.eqb_spec f fd) as [->|Hne]; cbn [rc_get]; [rewrite Z.eqb_refl; reflexivity|].
  destruct (Z.eqb_spec f fd); [contradiction|exact IH].
Qed.

Lemma rc_get_set_other fd fd' n r : fd' <> fd -> rc_get fd' (rc_set fd n r) = rc_get fd' r.
Proof.
  intro Hne. induction r as [|[f m] r IH]; cbn [rc_set rc_get].
  - destruct (Z.eqb_spec fd fd'); [congruence|reflexivity].
  - destruct (Z.eqb_spec f fd) as [->|Hf]; cbn [rc_get].
    + destruct (Z.eqb_spec fd fd'); [congruence|reflexivity].
    + destruct (Z.eqb f fd'); [reflexivity|exact IH].
Qed.

(* ---- replaying a program against a recorded trace ------------------------------------- *)

(* 28 x 28 constructor pairs: proved once, here, for every monitor's soundness proof *)
Lemma call_eqb_eq c c' : call_eqb c c' = true -> c = c'.
Proof.
  (* a term, not a script: the 756 mixed pairs are its one default branch (as goals they are dear) *)
  refine (match c as x, c' as y return call_eqb x y = true -> x = y with
  | Openat _ _ _ _, Openat _ _ _ _ => _ | Openat2 _ _ _ _ _, Openat2 _ _ _ _ _ => _
  | Readlinkat _ _, Readlinkat _ _ => _ | Fstatat _ _ _, Fstatat _ _ _ => _ | Statx _ _ _ _, Statx _ _ _ _ => _
  | Fstatfs _, Fstatfs _ => _ | Faccessat _ _ _ _, Faccessat _ _ _ _ => _ | Mkdirat _ _ _, Mkdirat _ _ _ => _
  | Mknodat _ _ _ _, Mknodat _ _ _ _ => _ | Unlinkat _ _ _, Unlinkat _ _ _ => _
  | Linkat _ _ _ _ _, Linkat _ _ _ _ _ => _ | Symlinkat _ _ _, Symlinkat _ _ _ => _
  | Renameat _ _ _ _, Renameat _ _ _ _ => _ | Renameat2 _ _ _ _ _, Renameat2 _ _ _ _ _ => _
  | FcntlGetfl _, FcntlGetfl _ => _ | Getdents _, Getdents _ => _ | DupCloexec _, DupCloexec _ => _
  | Close _, Close _ => _ | Read _, Read _ => _ | Fsopen _ _, Fsopen _ _ => _
  | FsconfigSetString _ _ _, FsconfigSetString _ _ _ => _ | FsconfigCreate _, FsconfigCreate _ => _
  | Fsmount _ _ _, Fsmount _ _ _ => _ | OpenTree _ _ _, OpenTree _ _ _ => _ | Readlink _, Readlink _ => _
  | Geteuid, Geteuid => _ | Gettid, Gettid => _ | Rand, Rand => _
  | _, _ => fun E => False_ind _ (diff_false_true E)
  end); intro E; try reflexivity; cbn [call_eqb] in E;
    repeat match goal with H : _ && _ = true |- _ => apply andb_true_iff in H; destruct H end;
    repeat match goal with H : zeqb _ _ = true |- _ => apply Z.eqb_eq in H; subst end;
    repeat match goal with H : beq _ _ = true |- _ => apply beq_true_iff in H; subst end;
    repeat match goal with H : N.eqb _ _ = true |- _ => apply N.eqb_eq in H; subst end;
    reflexivity.
Qed.

(* what a replay that finished says about the program's head *)
Lemma run_trace_done {A} (p : prog A) t idx a n :
  run_trace p t idx = RDone a n ->
  match p with
  | Ret a0 => t = [] /\ a0 = a /\ n = idx
  | Call c k => exists r t', t = (c, r) :: t' /\ run_trace (k r) t' (S idx) = RDone a n
  | _ => False
  end.
Proof.
  destruct p as [a0|c k|site|]; cbn [run_trace].
  - destruct t; [|discriminate]. intro H. inversion H. auto.
  - destruct t as [|[c' r] t']; [discriminate|]. destruct (call_eqb c c') eqn:E; [|discriminate].
    apply call_eqb_eq in E. subst c'. intro H. exists r, t'. split; [reflexivity|exact H].
  - destruct t; discriminate.
  - destruct t; discriminate.
Qed.
