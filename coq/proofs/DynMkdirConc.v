(* DynMkdirConc.v -- C12, racing callers: the creation loop under interference.
   Between any two calls of the loop (mkdirat, openat -- each atomic in the kernel) the environment may add any
   number of directories under names that did not exist ([extends]: what every other mkdir_all caller does, and
   what the loop's own steps do).  Under that interference the loop still cannot fail when it had no reason to
   fail at the start, and what it returns is the descent along the components in the final tree. *)
From PV Require Import Dyn DynMkdir DynMkdirComplete.

Inductive mk_conc : fs -> nat -> list bytes -> fs -> (nat + N) -> Prop :=
| mc_nil s o : mk_conc s o [] s (inl o)
| mc_env s s1 o ps s' r : extends s s1 -> mk_conc s1 o ps s' r -> mk_conc s o ps s' r
| mc_step s o p rest s1 s2 c s' r :
    mk_dir s o p = inl s1 -> extends s1 s2 -> mk_open s2 o p = inl c -> mk_conc s2 c rest s' r -> mk_conc s o (p :: rest) s' r
| mc_fail_dir s o p rest e : mk_dir s o p = inr e -> mk_conc s o (p :: rest) s (inr e)
| mc_fail_open s o p rest s1 s2 e : mk_dir s o p = inl s1 -> extends s1 s2 -> mk_open s2 o p = inr e -> mk_conc s o (p :: rest) s2 (inr e).

Lemma mk_conc_seq : forall ps s o, mk_conc s o ps (fst (mk_spec s o ps)) (snd (mk_spec s o ps)).
Proof.
  induction ps as [|p rest IH]; intros s o; cbn [mk_spec]; [apply mc_nil|].
  destruct (mk_dir s o p) as [s1|e] eqn:Ed; [|apply mc_fail_dir; exact Ed].
  destruct (mk_open s1 o p) as [c|e] eqn:Eo.
  - eapply mc_step; [exact Ed|apply ext_refl|exact Eo|apply IH].
  - eapply mc_fail_open; [exact Ed|apply ext_refl|exact Eo].
Qed.

Lemma chain_ok_short s : forall ps o, chain_ok s o ps -> Forall (fun q => too_long q = false) ps.
Proof.
  induction ps as [|p rest IH]; intros o H; [constructor|]. cbn [chain_ok] in H. destruct H as [Hp H]. constructor; [exact Hp|].
  destruct (lookup s o p) as [c|]; [exact (IH c (proj2 H))|exact H].
Qed.

Lemma chain_ok_extends s s' : extends s s' -> closed2 s -> dirs_ok s -> forall ps o, (o < length (kinds s))%nat ->
  chain_ok s o ps -> chain_ok s' o ps.
Proof. intros He _ Hdo ps o _. exact (chain_ok_ext s s' He Hdo ps o). Qed.

(* the loop's own step is one of the environment's steps (the guarantee) *)
Lemma mk_dir_extends s o p s1 : mk_dir s o p = inl s1 -> extends s s1.
Proof. exact (mk_dir_ext s o p s1). Qed.

Theorem mk_conc_converges s o ps s' r : mk_conc s o ps s' r ->
  closed2 s -> dirs_ok s -> is_dir s o = true -> Forall (fun p => Dyn.plain p = true) ps -> chain_ok s o ps ->
  extends s s' /\ exists c, r = inl c /\ descend_dirs s' o ps = Some c /\ is_dir s' c = true.
Proof.
  induction 1 as [s o|s s1 o ps s' r He _ IH|s o p rest s1 s2 c s' r Hmd He Hmo _ IH|s o p rest e Hmd|s o p rest s1 s2 e Hmd He Hmo];
    intros Hc Hdo Hdir Hpl Hch.
  - split; [apply ext_refl|]. exists o. repeat split; [exact Hdir].
  - (* the premises hold after a step of the environment *)
    destruct (IH (extends_closed2 _ _ He Hc) (extends_dirs_ok _ _ He Hdo) (is_dir_extends _ _ _ He Hdir) Hpl
                 (chain_ok_ext _ _ He Hdo ps o Hch)) as (Hext & c & -> & Hdesc & Hcd).
    split; [exact (extends_trans _ _ _ He Hext)|]. exists c. repeat split; assumption.
  - inversion Hpl as [|? ? Hp Hprest]; subst.
    pose proof (extends_trans _ _ _ (mk_dir_ext _ _ _ _ Hmd) He) as He2.
    destruct (mk_step_ok s o p rest s1 s2 Hdo Hdir Hp Hch Hmd He) as (c1 & Hmo1 & Hl2 & Hcd2 & Hrest2).
    rewrite Hmo in Hmo1. inversion Hmo1; subst c1.
    destruct (IH (extends_closed2 _ _ He2 Hc) (extends_dirs_ok _ _ He2 Hdo) Hcd2 Hprest Hrest2) as (Hext & c' & -> & Hdesc & Hcd').
    split; [exact (extends_trans _ _ _ He2 Hext)|]. exists c'. split; [reflexivity|]. split; [|exact Hcd'].
    destruct (extends_frame _ _ Hext) as (_ & Hlk' & _).
    rewrite (descend_dirs_cons s' o p rest c (Hlk' _ _ _ Hl2) (is_dir_extends _ _ _ Hext Hcd2)). exact Hdesc.
  - exfalso. inversion Hpl as [|? ? Hp Hprest]; subst.
    destruct (mk_dir_ok s o p Hdir Hp (proj1 Hch)) as (s1 & E). rewrite E in Hmd. discriminate.
  - exfalso. inversion Hpl as [|? ? Hp Hprest]; subst.
    destruct (mk_step_ok s o p rest s1 s2 Hdo Hdir Hp Hch Hmd He) as (c1 & Hmo1 & _). rewrite Hmo in Hmo1. discriminate.
Qed.

(* two racing callers of the same chain hold the same directory: in any tree both runs lead into (the one they
   end in, or anything later), the two handles are the descent along the components there *)
Theorem mk_conc_same_handles sa sb o ps sa' sb' ra rb sF :
  mk_conc sa o ps sa' ra -> mk_conc sb o ps sb' rb -> extends sa' sF -> extends sb' sF ->
  closed2 sa -> dirs_ok sa -> is_dir sa o = true -> chain_ok sa o ps ->
  closed2 sb -> dirs_ok sb -> is_dir sb o = true -> chain_ok sb o ps ->
  Forall (fun p => Dyn.plain p = true) ps ->
  exists c, ra = inl c /\ rb = inl c /\ descend_dirs sF o ps = Some c.
Proof.
  intros Ha Hb Hea Heb Hca Hda Hoa Hcha Hcb Hdb Hob Hchb Hpl.
  destruct (mk_conc_converges _ _ _ _ _ Ha Hca Hda Hoa Hpl Hcha) as (Ha1 & ca & -> & Hdesca & _).
  destruct (mk_conc_converges _ _ _ _ _ Hb Hcb Hdb Hob Hpl Hchb) as (Hb1 & cb & -> & Hdescb & _).
  pose proof (descend_dirs_extends _ _ Hea ps o ca Hdesca) as H1.
  pose proof (descend_dirs_extends _ _ Heb ps o cb Hdescb) as H2.
  rewrite H1 in H2. inversion H2; subst cb. exists ca. repeat split. exact H1.
Qed.
