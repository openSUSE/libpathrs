(* StaticProcfs.v -- C01: as_unsafe_path on the static kernel's minimal procfs.
   Discharges the d_path premise of StaticProofs.check_current_static: reading
   /proc/thread-self/fd/N through the ProcfsHandle returns the kernel's rendering
   of the object descriptor N is open on, and leaves the descriptor table as it was.
   The handle reaches procfs objects through its resolver only ([presolves]); what is
   shown here holds for either resolver, and the one built on openat2 is treated here
   (the emulated one in StaticProcfsEmu). *)
From PV Require Import Static PathProofs StaticProofs CheckProofs ProcfsProps BitsProofs.

Lemma num_snoc x c : num (x ++ [c]) = num x * 10 + (c - 48).
Proof. unfold num. rewrite fold_left_app. reflexivity. Qed.

Lemma dec_fuel_num f : forall n acc, n < 10 ^ N.of_nat f -> exists D, dec_fuel f n acc = D ++ acc /\ num D = n.
Proof.
  induction f as [|f IH]; intros n acc Hn.
  - exists []. change (10 ^ N.of_nat 0) with 1 in Hn. apply N.lt_1_r in Hn. subst n. split; reflexivity.
  - cbn [dec_fuel].
    assert (Hq : n / 10 < 10 ^ N.of_nat f).
    { rewrite Nat2N.inj_succ, N.pow_succ_r' in Hn. apply N.div_lt_upper_bound; [discriminate|exact Hn]. }
    (* the last digit, as [num] reads it back *)
    assert (Hdm : (n / 10) * 10 + (48 + n mod 10 - 48) = n).
    { rewrite (N.add_comm 48), N.add_sub, N.mul_comm. symmetry. apply N.div_mod. discriminate. }
    destruct (N.eqb_spec (n / 10) 0) as [E|Hne].
    + exists [48 + n mod 10]. split; [reflexivity|]. rewrite E in Hdm. exact Hdm.
    + destruct (IH (n / 10) ((48 + n mod 10) :: acc) Hq) as (D & HD & Hnum).
      exists (D ++ [48 + n mod 10]). split; [rewrite HD, <- app_assoc; reflexivity|].
      rewrite num_snoc, Hnum. exact Hdm.
Qed.

Lemma num_dec n : num (dec n) = n.
Proof.
  unfold dec. destruct (dec_fuel_num (S (N.to_nat (N.log2 n))) n []) as (D & -> & H); [|rewrite app_nil_r; exact H].
  rewrite Nat2N.inj_succ, N2Nat.id.
  destruct (N.eq_dec n 0) as [->|Hne]; [reflexivity|].
  apply (N.lt_le_trans _ _ _ (proj2 (N.log2_spec n (proj1 (N.neq_0_lt_0 n) Hne)))), N.pow_le_mono_l. discriminate.
Qed.

Lemma parse_fd_dec n : parse_fd (b "fd/" ++ dec n) = Some (Z.of_N n).
Proof. change (b "fd/" ++ dec n) with (102 :: 100 :: 47 :: dec n). cbn [parse_fd]. rewrite num_dec. reflexivity. Qed.

Lemma parse_dec_dec n : parse_dec (dec n) = Some (Z.of_N n).
Proof. unfold parse_dec. rewrite num_dec, beq_refl. reflexivity. Qed.

Lemma dec_no_nul n : has_nul (dec n) = false.
Proof. apply (digits_no_byte 0 _ (dec_digits n)). unfold digit. lia. Qed.

Lemma dec_not_nil n : is_nil (dec n) = false.
Proof. pose proof (dec_nonempty n). destruct (dec n); [contradiction|reflexivity]. Qed.

(* a decimal name starts with a digit, not with '.' *)
Lemma dec_not_dotdot n : is_dotdot (dec n) = false.
Proof.
  pose proof (dec_digits n) as H. unfold is_dotdot. destruct H as [|d D Hd _]; [reflexivity|]. cbn [beq].
  destruct (N.eqb_spec d DOT) as [E|_]; [unfold digit, DOT in *; lia|reflexivity].
Qed.

Lemma tdel_notin t f : tfind t f = None -> tdel t f = t.
Proof.
  induction t as [|[k o] t IH]; intro H; [reflexivity|]. cbn [tfind] in H. cbn [tdel filter fst].
  destruct (Z.eqb_spec k f); [discriminate|]. cbn [negb]. f_equal. apply IH, H.
Qed.

(* a descriptor number above every one in use: what the kernel hands out is such a number,
   and so is every number handed out later.  A descriptor opened above a table and closed
   again leaves exactly that table. *)
Definition Above (T : fdt) (n : Z) : Prop := (fresh T <= n)%Z.

Lemma above_fresh T : Above T (fresh T).
Proof. apply Z.le_refl. Qed.

Lemma above_none T n : Above T n -> tfind T n = None.
Proof.
  intro H. destruct (tfind T n) eqn:E; [|reflexivity]. apply tfind_in, fresh_gt in E.
  destruct (Z.lt_irrefl _ (Z.lt_le_trans _ _ _ E H)).
Qed.

(* Static.fresh starts at 3: the numbers 0-2 are never handed out *)
Lemma above_pos T n : Above T n -> (0 <= n)%Z.
Proof. intro H. apply (Z.le_trans 0 3); [discriminate|]. exact (Z.le_trans _ _ _ (fresh_ge3 T) H). Qed.

Lemma above_cons T c v n : Above ((c, v) :: T) n -> Above T n /\ (c < n)%Z.
Proof.
  unfold Above. cbn [fresh fold_right fst]. fold (fresh T). intro H. apply Z.max_lub_iff in H as [Hc HT].
  split; [exact HT|apply Z.le_succ_l, Hc].
Qed.

Lemma above_same T n v : Above T n -> tget ((n, v) :: T) n = Some v.
Proof.
  intro H. unfold tget. rewrite (proj2 (Z.ltb_ge n 0) (above_pos T n H)).
  cbn [tfind]. rewrite Z.eqb_refl. reflexivity.
Qed.

Lemma above_old T n v fd o : Above T n -> tget T fd = Some o -> tget ((n, v) :: T) fd = Some o.
Proof.
  intros H Hfd. apply above_none in H. unfold tget in *. destruct (Z.ltb fd 0); [discriminate|]. cbn [tfind].
  destruct (Z.eqb_spec n fd) as [->|_]; [rewrite H in Hfd; discriminate|exact Hfd].
Qed.

Lemma above_close T n v : Above T n -> tdel ((n, v) :: T) n = T.
Proof. intro H. cbn [tdel filter fst]. rewrite Z.eqb_refl. cbn [negb]. apply tdel_notin, above_none, H. Qed.

Lemma tdel_new t o : tdel ((fresh t, o) :: t) (fresh t) = t.
Proof. apply above_close, above_fresh. Qed.

Lemma above_close2 T c v n w : Above T c -> Above ((c, v) :: T) n -> tdel ((n, w) :: (c, v) :: T) c = (n, w) :: T.
Proof.
  intros Hc Hn. apply above_cons in Hn as [_ Hlt]. cbn [tdel filter fst].
  rewrite (proj2 (Z.eqb_neq n c) (not_eq_sym (Z.lt_neq _ _ Hlt))). cbn [negb]. f_equal. apply (above_close T c v Hc).
Qed.

Lemma openat_word_dir fl :
  has (N.lor (N.lor (N.lor fl OPENAT_NOFOLLOW_FORCED) OPENAT_FORCED) O_LARGEFILE) O_DIRECTORY = has fl O_DIRECTORY.
Proof. change O_DIRECTORY with (2 ^ 16). rewrite !has_lor_bit. destruct (has fl (2 ^ 16)); reflexivity. Qed.

Section Sem.
Variable s : fs.
Variable rp : bytes.

Lemma sem_openat_fdentry t d n target fl m :
  tget t d = Some (P_FDDIR s) -> has fl O_NOFOLLOW = false -> tget t (Z.of_N n) = Some target ->
  sem s rp t (Openat d (dec n) fl m) =
  if has fl O_DIRECTORY && negb (obj_is_dir s target) then SRet (RErr ENOTDIR) else SNew target.
Proof. intros Hd Hnf Hn. cbn [sem]. rewrite Hd, Nat.eqb_refl, Hnf, parse_dec_dec, Hn. reflexivity. Qed.

Lemma sem_statx_fdentry t d n target fl mask :
  tget t d = Some (P_FDDIR s) -> tget t (Z.of_N n) = Some target ->
  sem s rp t (Statx d (dec n) fl mask) = SRet (RStatx STATX_WANT_MASK PROC_MNT).
Proof. intros Hd Hn. cbn [sem]. rewrite Hd, dec_not_nil, Nat.eqb_refl, parse_dec_dec, Hn. reflexivity. Qed.

Lemma sem_readlinkat_pfs t fd k body :
  tget t fd = Some (PB s + k)%nat -> (k < NP)%nat -> FSModel.link_body PFS k = Some body ->
  sem s rp t (Readlinkat fd []) = SRet (RBytes body).
Proof.
  intros Hfd Hk Hb. cbn [sem]. rewrite Hfd, (link_body_beyond s (PB s + k)) by apply Nat.le_add_r. cbn [is_nil negb].
  destruct (Nat.leb_spec (PB s + NP) (PB s + k)) as [Hbad|_]; [lia|].
  rewrite (proj2 (Nat.leb_le _ _) (Nat.le_add_r (PB s) k)), Nat.add_comm, Nat.add_sub, Hb. reflexivity.
Qed.

(* fstatat(/proc handle, "thread-self"): the first candidate of ProcfsBase::into_path exists *)
Lemma sem_fstatat_thread_self t P fl : tget t P = Some (PB s) ->
  sem s rp t (Fstatat P (b "thread-self") fl) = SRet (RStat S_IFLNK 0 0 0).
Proof. intro HP. cbn [sem]. rewrite (tget_not_cwd _ _ _ HP), HP, Nat.eqb_refl. reflexivity. Qed.

Lemma sem_openat2_root t root path fl m res :
  (0 < PB s)%nat -> tget t root = Some ROOT -> has res RESOLVE_IN_ROOT = true -> has fl O_PATH = true ->
  sem s rp t (Openat2 root path fl m res) =
  match FSModel.kwalk s path (has fl O_NOFOLLOW) (has res RESOLVE_NO_SYMLINKS) with
  | FSModel.WOk c => SNew c
  | FSModel.WErr e => SRet (RErr e)
  | FSModel.WBudget => SRet (RErr ELOOP)
  end.
Proof.
  intros HPB Hroot Hir Hop. cbn [sem]. rewrite Hroot, (proj2 (Nat.ltb_lt ROOT (PB s)) HPB), Nat.eqb_refl, Hir, Hop. reflexivity.
Qed.

Lemma sem_openat2_thread_self t d fl m res :
  tget t d = Some (PB s) -> sem s rp t (Openat2 d (b "thread-self") fl m res) = SNew (P_THREAD s).
Proof.
  intro Hd. cbn [sem]. rewrite Hd. destruct (Nat.ltb_spec (PB s) (PB s)) as [Hb|_]; [lia|].
  rewrite Nat.eqb_refl. reflexivity.
Qed.

Lemma sem_openat2_thread t d path fl m res :
  tget t d = Some (P_THREAD s) ->
  sem s rp t (Openat2 d path fl m res) =
  if beq path (b "fd") then SNew (P_FDDIR s)
  else match parse_fd path with
       | Some n => match tget t n with Some target => SNew (P_LINK s target) | None => SRet (RErr ENOENT) end
       | None => SRet (RErr ENOSYS)
       end.
Proof.
  intro Hd. cbn [sem]. rewrite Hd.
  destruct (Nat.ltb_spec (P_THREAD s) (PB s)) as [Hb|_]; [unfold P_THREAD in Hb; lia|].
  destruct (Nat.eqb_spec (P_THREAD s) (PB s)) as [Hb|_]; [unfold P_THREAD in Hb; lia|].
  rewrite Nat.eqb_refl. destruct (beq path (b "fd")); reflexivity.
Qed.

End Sem.

Section Calls.
Variable s : fs.
Variable rp : bytes.
Variable fz : nat.
Hypothesis Hfz : fz <> 0%nat.

Notation run := (run s rp).

Lemma run_w_openat2_sem t fd o path oflags resolve :
  tget t fd = Some o -> has_nul path = false ->
  run t (w_openat2 fz fd path oflags 0 resolve) =
  let (t', r) := answer s rp t (Openat2 fd path (openat2_flags oflags) 0 resolve) in Done t' (as_fd r).
Proof.
  intros Hfd Hnul. unfold w_openat2. rewrite (tget_valid _ _ _ Hfd), Hnul, andb_false_r. cbn [negb Static.run].
  rewrite (to_c_string_id path Hnul). destruct (answer s rp t _) as [t' r]. apply (run_decode s rp fz Hfz).
Qed.

Lemma run_readlinkat_sem t fd o body :
  tget t fd = Some o -> sem s rp t (Readlinkat fd []) = SRet (RBytes body) ->
  N.leb READLINK_BUF (N.of_nat (length body)) = false ->
  run t (os (w_readlinkat fz fd [])) = Done t (Ok body).
Proof.
  intros Hfd Hs Hlen.
  rewrite (run_os s rp), (run_w_readlinkat s rp fz Hfz t fd o [] Hfd eq_refl), (answer_ret s rp t _ _ Hs). cbn [as_bytes].
  rewrite Hlen. reflexivity.
Qed.

Lemma run_fetch_mnt_sem t fd o path id :
  tget t fd = Some o -> has_nul path = false ->
  sem s rp t (Statx fd path STATX_FLAGS STATX_WANT_MASK) = SRet (RStatx STATX_WANT_MASK id) ->
  run t (fetch_mnt_id fz fd path) = Done t (Ok (Some id)).
Proof.
  intros Hfd Hnul Hs. unfold fetch_mnt_id, w_statx.
  rewrite (run_bind s rp), (run_simple1 s rp fz Hfz t fd o _ _ _ Hfd Hnul), (answer_ret s rp t _ _ Hs). reflexivity.
Qed.

Lemma run_fetch_mnt t fd o : tget t fd = Some o ->
  run t (fetch_mnt_id fz fd []) = Done t (Ok (Some (if Nat.leb (PB s) o then PROC_MNT else FS_MNT))).
Proof. intro Hfd. exact (run_fetch_mnt_sem t fd o [] _ Hfd eq_refl (sem_statx_nil s rp t fd o _ _ Hfd)). Qed.

Lemma run_verify_same_mnt t fd path id :
  run t (fetch_mnt_id fz fd path) = Done t (Ok (Some id)) ->
  run t (verify_same_mnt fz (Some id) fd path) = Done t (Ok tt).
Proof. intro H. unfold verify_same_mnt. rewrite (run_bindR s rp), H. cbn [opt_n_eqb]. rewrite N.eqb_refl. reflexivity. Qed.

Lemma run_verify_mnt t fd o : tget t fd = Some o -> (PB s <= o)%nat ->
  run t (verify_same_mnt fz (Some PROC_MNT) fd []) = Done t (Ok tt).
Proof.
  intros Hfd Hle. apply run_verify_same_mnt. rewrite (run_fetch_mnt t fd o Hfd).
  destruct (Nat.leb_spec (PB s) o) as [_|Hlt]; [reflexivity|lia].
Qed.

Lemma run_verify gh t fd o : ph_mnt gh = Some PROC_MNT -> tget t fd = Some o -> (PB s <= o)%nat ->
  run t (verify_same_procfs_mnt fz gh fd) = Done t (Ok tt).
Proof.
  intros Hmnt Hfd Hle. unfold verify_same_procfs_mnt, verify_is_procfs.
  rewrite Hmnt, (run_bindR s rp), (run_verify_mnt t fd o Hfd Hle), (run_bindR s rp), (run_os s rp), (run_w_fstatfs s rp fz Hfz t fd o Hfd).
  destruct (Nat.leb_spec (PB s) o) as [_|Hlt]; [|lia]. rewrite N.eqb_refl. reflexivity.
Qed.

Lemma run_into_path t P : tget t P = Some (PB s) ->
  run t (into_path fz P ProcThreadSelf) = Done t (b "thread-self").
Proof.
  intro HP. assert (Hnul : has_nul (b "thread-self") = false) by reflexivity.
  unfold into_path. cbn [Static.run]. unfold answer at 1. cbn [sem as_num thread_self_cands]. unfold w_fstatat.
  rewrite (run_bind s rp), (run_simple1 s rp fz Hfz t P _ _ _ _ HP Hnul), (answer_ret s rp t _ _ (sem_fstatat_thread_self s rp t P _ HP)).
  reflexivity.
Qed.

End Calls.

Section Resolver.
Variable s : fs.
Variable rp : bytes.
Variable fz : nat.

(* ProcfsResolver::resolve(dir, sub, fl) returns a new descriptor open on [obj] and changes
   nothing else.  [o2]: is openat2 available?  It is given twice: as the library's configuration
   (syscalls::OPENAT2_IS_SUPPORTED) and as the resolver the handle was built with, which agree. *)
Definition presolves (o2 : bool) (T : fdt) (dir : Z) (sub : bytes) (fl : N) (obj : nat) : Prop :=
  exists m, run s rp T (presolve fz o2 o2 dir sub fl 0) = Done ((m, obj) :: T) (Ok m) /\ Above T m.

(* the three lookups the handle makes on the way to /proc/thread-self/fd/N *)
Definition routes (o2 : bool) : Prop :=
  (forall T P, tget T P = Some (PB s) -> presolves o2 T P (b "thread-self") OPEN_BASE_FLAGS (P_THREAD s)) /\
  (forall T d, tget T d = Some (P_THREAD s) ->
     presolves o2 T d (b "fd") (N.lor OPEN_FOLLOW_PARENT_FLAGS PROCFS_OPEN_FORCED) (P_FDDIR s)) /\
  (forall T d fd o, tget T d = Some (P_THREAD s) -> tget T fd = Some o ->
     presolves o2 T d (b "fd/" ++ dec (Z.to_N fd)) (N.lor PROCFS_READLINK_FLAGS PROCFS_OPEN_FORCED) (P_LINK s o)).

End Resolver.

Section Handle.
Variable s : fs.
Variable rp : bytes.
Variable fz : nat.
Hypothesis Hfz : fz <> 0%nat.
Variable gh : phandle.
Hypothesis Hmnt : ph_mnt gh = Some PROC_MNT.
Variable o2 : bool.
Hypothesis Ho2 : ph_openat2 gh = o2.
Hypothesis Hroutes : routes s rp fz o2.

Notation run := (run s rp).
Notation presolves := (presolves s rp fz).

Lemma run_open_base t : tget t (ph_fd gh) = Some (PB s) ->
  exists d, run t (open_base fz o2 gh ProcThreadSelf) = Done ((d, P_THREAD s) :: t) (Ok d) /\ Above t d.
Proof.
  intro HP. destruct Hroutes as (Hbase & _ & _). destruct (Hbase t _ HP) as (d & Hr & Hd).
  exists d. split; [|exact Hd]. unfold open_base.
  rewrite (run_bind s rp), (run_into_path s rp fz Hfz t _ HP), Ho2, (run_bindR s rp), Hr.
  rewrite (run_bind s rp), (run_verify s rp fz Hfz gh _ d _ Hmnt (above_same t d _ Hd)) by (unfold P_THREAD; lia).
  reflexivity.
Qed.

Lemma run_popen pf t sub fl obj : tget t (ph_fd gh) = Some (PB s) -> (PB s <= obj)%nat ->
  (forall d, Above t d -> presolves o2 ((d, P_THREAD s) :: t) d sub (N.lor fl PROCFS_OPEN_FORCED) obj) ->
  exists m, run t (popen fz o2 (S pf) gh ProcThreadSelf sub fl) = Done ((m, obj) :: t) (Ok m) /\ Above t m.
Proof.
  intros HP Hobj Hsub. destruct (run_open_base t HP) as (d & Hb & Hd). destruct (Hsub d Hd) as (m & Hr & Hm).
  exists m. split; [|apply (above_cons t d (P_THREAD s) m Hm)].
  cbn [popen]. rewrite (run_bindR s rp), Hb, Ho2, (run_bind s rp), Hr.
  rewrite (run_bind s rp), (run_bind s rp), (run_verify s rp fz Hfz gh _ m obj Hmnt (above_same _ m _ Hm) Hobj).
  cbn [Static.run bind]. rewrite (run_bind s rp), run_close, (above_close2 t d _ m _ Hd Hm). reflexivity.
Qed.

Lemma run_preadlink_magic pf t fd o exp :
  tget t (ph_fd gh) = Some (PB s) -> tget t fd = Some o -> find_path s o = Some exp ->
  N.leb READLINK_BUF (N.of_nat (length (render rp exp))) = false ->
  run t (preadlink fz o2 (S pf) gh ProcThreadSelf (b "fd/" ++ dec (Z.to_N fd))) = Done t (Ok (render rp exp)).
Proof.
  intros HP Hfd Hpath Hlen. destruct Hroutes as (_ & _ & Hlink).
  destruct (run_popen pf t (b "fd/" ++ dec (Z.to_N fd)) PROCFS_READLINK_FLAGS (P_LINK s o) HP) as (m & Hr & Hm).
  { unfold P_LINK. lia. }
  { intros d Hd. apply Hlink; [apply above_same, Hd|apply above_old; assumption]. }
  pose proof (above_same t m (P_LINK s o) Hm) as Hml.
  pose proof (sem_readlinkat_magic s rp _ m o Hml) as Hs. rewrite Hpath in Hs.
  unfold preadlink. rewrite (run_bindR s rp), Hr.
  rewrite (run_bind s rp), (run_readlinkat_sem s rp fz Hfz _ m _ _ Hml Hs Hlen).
  rewrite (run_bind s rp), run_close, (above_close t m _ Hm). reflexivity.
Qed.

Lemma run_as_unsafe_path_any pf t fd o exp :
  tget t (ph_fd gh) = Some (PB s) -> tget t fd = Some o -> find_path s o = Some exp ->
  N.leb READLINK_BUF (N.of_nat (length (render rp exp))) = false ->
  run t (as_unsafe_path fz o2 (S pf) gh fd) = Done t (Ok (render rp exp)).
Proof.
  intros HP Hfd Hpath Hlen. unfold as_unsafe_path. rewrite (proc_subpath_nonneg fd (tget_pos _ _ _ Hfd)).
  exact (run_preadlink_magic pf t fd o exp HP Hfd Hpath Hlen).
Qed.

End Handle.

Section Openat2.
Variable s : fs.
Variable rp : bytes.
Variable fz : nat.
Hypothesis Hfz : fz <> 0%nat.

Notation run := (run s rp).

(* PROCFS_OPENAT2_RETRIES = 0 or not: one openat2 call that the kernel answers with an object *)
Lemma run_openat2_resolve t fd o path o' oflags rflags :
  tget t fd = Some o -> has_nul path = false ->
  (forall fl res, sem s rp t (Openat2 fd path fl 0 res) = SNew o') ->
  run t (openat2_resolve fz true fd path oflags rflags) = Done ((fresh t, o') :: t) (Ok (fresh t)).
Proof.
  intros Hfd Hnul Hsem.
  assert (Hw : forall res, run t (w_openat2 fz fd path oflags 0 res) = Done ((fresh t, o') :: t) (Ok (fresh t))).
  { intro res. rewrite (run_w_openat2_sem s rp fz Hfz t fd o path _ _ Hfd Hnul), (answer_new s rp t _ o' (Hsem _ _)), as_fd_fresh.
    reflexivity. }
  unfold openat2_resolve. cbn [negb].
  destruct (N.eqb_spec PROCFS_OPENAT2_RETRIES 0) as [E|Hne].
  - rewrite (run_os s rp), Hw. reflexivity.
  - destruct (N.to_nat PROCFS_OPENAT2_RETRIES) as [|m] eqn:Em; [lia|].
    cbn [openat2_retry]. rewrite (run_bind s rp), Hw. reflexivity.
Qed.

Lemma presolves_openat2 t fd o path fl o' :
  tget t fd = Some o -> has_nul path = false -> procfs_flags_invalid fl = false ->
  (forall fl res, sem s rp t (Openat2 fd path fl 0 res) = SNew o') ->
  presolves s rp fz true t fd path fl o'.
Proof.
  intros Hfd Hnul Hfl Hsem. exists (fresh t). split; [|apply above_fresh].
  unfold presolve. rewrite Hfl. exact (run_openat2_resolve t fd o path o' _ _ Hfd Hnul Hsem).
Qed.

Lemma routes_openat2 : routes s rp fz true.
Proof.
  split; [|split].
  - intros T P HP. eapply presolves_openat2; [exact HP|reflexivity ..|].
    intros fl res. apply sem_openat2_thread_self, HP.
  - intros T d Hd. eapply presolves_openat2; [exact Hd|reflexivity ..|].
    intros fl res. rewrite (sem_openat2_thread s rp T d _ _ _ _ Hd). reflexivity.
  - intros T d fd o Hd Hfd. eapply presolves_openat2; [exact Hd| |reflexivity|].
    + unfold has_nul. rewrite has_byte_app. apply dec_no_nul.
    + intros fl res. rewrite (sem_openat2_thread s rp T d _ _ _ _ Hd), parse_fd_dec, Z2N.id, Hfd by exact (tget_pos _ _ _ Hfd).
      reflexivity.
Qed.

End Openat2.

Section PF.
Variable s : fs.
Variable rp : bytes.
Variable fz : nat.
Hypothesis Hfz : fz <> 0%nat.
Variable gh : phandle.
Hypothesis Hmnt : ph_mnt gh = Some PROC_MNT.
Hypothesis Ho2 : ph_openat2 gh = true.

Notation run := (run s rp).

Theorem run_as_unsafe_path pf t fd o exp :
  tget t (ph_fd gh) = Some (PB s) ->
  tget t fd = Some o -> find_path s o = Some exp ->
  N.leb READLINK_BUF (N.of_nat (length (render rp exp))) = false ->
  run t (as_unsafe_path fz true (S pf) gh fd) = Done t (Ok (render rp exp)).
Proof. exact (run_as_unsafe_path_any s rp fz Hfz gh Hmnt true Ho2 (routes_openat2 s rp fz Hfz) pf t fd o exp). Qed.

End PF.

(* properties of the tree (not of the code): every object has one path, [find_path]
   finds it, and its rendering fits the library's readlink buffer.  Hard links give an
   object two paths: such trees are outside this theorem (the kernel answers with the
   path the descriptor was opened by, which a table of objects cannot express). *)
Definition paths_found (s : fs) : Prop :=
  forall o exp, FSModel.descend s ROOT exp = Some o -> find_path s o = Some exp.
Definition paths_short (s : fs) (rp : bytes) : Prop :=
  forall o exp, FSModel.descend s ROOT exp = Some o ->
    N.leb READLINK_BUF (N.of_nat (length (render rp exp))) = false.

Lemma render_abs exp : forall acc, is_abs acc = true ->
  is_abs (fold_left (fun a c => a ++ SLASH :: c) exp acc) = true.
Proof.
  induction exp as [|c t IH]; intros acc H; cbn [fold_left]; [exact H|]. apply IH.
  destruct acc; [discriminate|exact H].
Qed.

Lemma render_nf exp : Forall name_ok exp -> forall acc,
  nf (fold_left (fun a c => a ++ SLASH :: c) exp acc) = nf acc ++ exp.
Proof.
  induction 1 as [|c t Hc _ IH]; intro acc; cbn [fold_left]; [rewrite app_nil_r; reflexivity|].
  rewrite IH, nf_slash, (nf_name c Hc), <- app_assoc. reflexivity.
Qed.

Lemma getpath_static_any s rp fz gh o2 pf :
  fz <> 0%nat -> ph_mnt gh = Some PROC_MNT -> ph_openat2 gh = o2 -> routes s rp fz o2 ->
  is_abs rp = true -> names_ok s -> paths_found s -> paths_short s rp ->
  getpath_ok s rp [(ph_fd gh, PB s)] (nf rp) (as_unsafe_path fz o2 (S pf) gh).
Proof.
  intros Hfz Hmnt Ho2 Hr Habs Hnames Hfound Hshort t fd o exp Hfr Hfd Hexp.
  destruct (Hfr (ph_fd gh) (PB s) (or_introl eq_refl)) as [HP _].
  exists (render rp exp). split; [|split].
  - apply (run_as_unsafe_path_any s rp fz Hfz gh Hmnt o2 Ho2 Hr pf t fd o exp HP Hfd (Hfound o exp Hexp) (Hshort o exp Hexp)).
  - apply render_abs, Habs.
  - apply render_nf. exact (descend_names s Hnames exp ROOT o Hexp).
Qed.
