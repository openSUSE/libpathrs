(* BeneathProofs.v -- C13 / C12, for ALL kernel answers:
   * dir.rs remove_all(dirfd, name): every unlinkat it issues is either on (dirfd, name)
     itself or on a descriptor that descends from it -- obtained by opening (dirfd, name),
     or a '/'-free, non-dot name below a descriptor that descends from it, with O_NOFOLLOW
     (or by re-opening "." of such a descriptor) -- and names a '/'-free entry other than
     "." and "..".  No other call that changes the tree is ever issued.  So whatever the
     directory listings say and whoever rearranges the tree meanwhile, nothing is removed
     through a descriptor that was not reached by walking down from the named entry
     without following links.
   * the creation loop of mkdir_all: the mkdirat calls form ONE chain -- each is made on
     the directory opened (O_NOFOLLOW|O_DIRECTORY) under the name given to the previous
     mkdirat -- and nothing else changes the tree. *)
From PV Require Import ProgTac BitsProofs RootM.

Section Beneath.
Variable top : Z.
Variable nm : bytes.
Variable fz : nat.

Definition plain (n : bytes) : Prop := has_slash n = false /\ dot_or_dotdot n = false.

(* D: descriptors known to descend from (top, nm) *)
Definition call_ok (D : list Z) (c : call) : Prop :=
  match c with
  | Unlinkat d n _ => (d = top /\ n = nm) \/ (In d D /\ plain n)
  | Openat d n fl _ =>
      (d = top /\ n = nm /\ has fl O_NOFOLLOW = true) \/
      (In d D /\ ((plain n /\ has fl O_NOFOLLOW = true) \/ n = [DOT]))
  | Openat2 _ _ _ _ _ | Mkdirat _ _ _ | Mknodat _ _ _ _ | Linkat _ _ _ _ _ | Symlinkat _ _ _
  | Renameat _ _ _ _ | Renameat2 _ _ _ _ _ => False
  | _ => True
  end.

(* what [call_ok] asks of an unlinkat, and (with O_NOFOLLOW) of an open *)
Definition entry_ok (D : list Z) (d : Z) (n : bytes) : Prop := (d = top /\ n = nm) \/ (In d D /\ plain n).

Definition grow (D : list Z) (c : call) (r : resp) : list Z :=
  match c with
  | Openat _ _ _ _ => match as_fd r with Ok fd => fd :: D | Err _ => D end
  | _ => D
  end.

Inductive sub {A} (Q : A -> list Z -> Prop) : list Z -> prog A -> Prop :=
| sub_ret a D : Q a D -> sub Q D (Ret a)
| sub_call c k D : call_ok D c -> (forall r, sub Q (grow D c r) (k r)) -> sub Q D (Call c k)
| sub_panic s D : sub Q D (Panic s)
| sub_fuel D : sub Q D OutOfFuel.

Lemma sub_bind {A B} (Q1 : A -> list Z -> Prop) (Q2 : B -> list Z -> Prop) D (p : prog A) (f : A -> prog B) :
  sub Q1 D p -> (forall a D', Q1 a D' -> sub Q2 D' (f a)) -> sub Q2 D (bind p f).
Proof.
  intros Hp Hf. induction Hp as [a D Ha|c k D Hc Hk IH|s D|D]; cbn [bind].
  - apply Hf, Ha.
  - constructor; [exact Hc|]. intro r. apply IH.
  - constructor.
  - constructor.
Qed.

Lemma sub_weaken {A} (Q1 Q2 : A -> list Z -> Prop) D (p : prog A) :
  sub Q1 D p -> (forall a D', Q1 a D' -> Q2 a D') -> sub Q2 D p.
Proof. intros Hp H. induction Hp; constructor; auto. Qed.

(* the judgement does not see how binds are nested *)
Lemma sub_assoc {A B C} (Q : C -> list Z -> Prop) (p : prog A) (g : A -> prog B) (k : B -> prog C) :
  forall D, sub Q D (bind p (fun x => bind (g x) k)) -> sub Q D (bind (bind p g) k).
Proof.
  induction p as [a|c k0 IH|s|]; intros D H; cbn [bind] in *; [exact H| |constructor|constructor].
  inversion H; subst. constructor; [assumption|]. intro r. apply IH. auto.
Qed.

Lemma call_ok_mono D D' c : incl D D' -> call_ok D c -> call_ok D' c.
Proof.
  intros Hi. destruct c; cbn [call_ok]; try exact (fun H => H).
  - intros [H|[Hin H]]; [left; exact H|right; split; [apply Hi, Hin|exact H]].
  - intros [H|[Hin H]]; [left; exact H|right; split; [apply Hi, Hin|exact H]].
Qed.

Lemma grow_mono D D' c r : incl D D' -> incl (grow D c r) (grow D' c r).
Proof.
  intro Hi. destruct c; cbn [grow]; try exact Hi.
  destruct (as_fd r); [|exact Hi]. intros x [->|Hx]; [left; reflexivity|right; apply Hi, Hx].
Qed.

Lemma grow_incl D c r : incl D (grow D c r).
Proof.
  destruct c; cbn [grow]; try apply incl_refl. destruct (as_fd r); [apply incl_tl|]; apply incl_refl.
Qed.

(* the uniform postcondition: the set only grows *)
Definition grows {A} (D0 : list Z) : A -> list Z -> Prop := fun _ D => incl D0 D.

(* the judgement as the proofs below use it: [p] is fine from D and from every larger set, and
   ends in a larger one still.  A continuation proved for D serves after any prefix. *)
Definition subg {A} (D : list Z) (p : prog A) : Prop := forall D', incl D D' -> sub (grows D') D' p.

Lemma subg_mono {A} D D' (p : prog A) : incl D D' -> subg D p -> subg D' p.
Proof. intros Hi Hp E HE. apply Hp. eapply incl_tran; eassumption. Qed.

Lemma subg_ret {A} D (a : A) : subg D (Ret a).
Proof. intros D' _. constructor. apply incl_refl. Qed.

Lemma subg_fuel {A} D : subg D (@OutOfFuel A).
Proof. intros D' _. constructor. Qed.

Lemma subg_if {A} D (b : bool) (p q : prog A) : subg D p -> subg D q -> subg D (if b then p else q).
Proof. destruct b; auto. Qed.

Lemma subg_bind {A B} D (p : prog A) (f : A -> prog B) : subg D p -> (forall a, subg D (f a)) -> subg D (bind p f).
Proof.
  intros Hp Hf D' Hi. eapply sub_bind; [apply Hp, Hi|]. intros a D1 H1. unfold grows in H1.
  eapply sub_weaken; [apply Hf; eapply incl_tran; eassumption|].
  intros b E HE. unfold grows in *. eapply incl_tran; eassumption.
Qed.

Lemma subg_call {A} D c (k : resp -> prog A) : call_ok D c -> (forall r, subg (grow D c r) (k r)) -> subg D (Call c k).
Proof.
  intros Hc Hk D' Hi. constructor; [exact (call_ok_mono _ _ _ Hi Hc)|]. intro r.
  eapply sub_weaken; [apply Hk, grow_mono, Hi|]. intros a E HE. unfold grows in *.
  eapply incl_tran; [apply grow_incl|exact HE].
Qed.

(* calls that neither open nor change anything *)
Definition quiet (c : call) : Prop :=
  match c with
  | Openat _ _ _ _ | Openat2 _ _ _ _ _ | Unlinkat _ _ _ | Mkdirat _ _ _ | Mknodat _ _ _ _ | Linkat _ _ _ _ _
  | Symlinkat _ _ _ | Renameat _ _ _ _ | Renameat2 _ _ _ _ _ => False
  | _ => True
  end.

Lemma quiet_inert c : quiet c -> (forall D, call_ok D c) /\ (forall D r, grow D c r = D).
Proof. intro Hq. destruct c; try destruct Hq; exact (conj (fun _ => I) (fun _ _ => eq_refl)). Qed.

Lemma sub_quiet {A} (Q : A -> list Z -> Prop) D c k :
  quiet c -> (forall r, sub Q D (k r)) -> sub Q D (Call c k).
Proof.
  intros Hq Hk. destruct (quiet_inert c Hq) as [Hok Hg]. constructor; [apply Hok|].
  intro r. rewrite Hg. apply Hk.
Qed.

Lemma subg_quiet {A} D c (k : resp -> prog A) : quiet c -> (forall r, subg D (k r)) -> subg D (Call c k).
Proof. intros Hq Hk D' Hi. apply sub_quiet; [exact Hq|]. intro r. apply Hk, Hi. Qed.

Lemma quiet_sub {A} D (p : prog A) : all_calls quiet p -> sub (fun _ D' => D' = D) D p.
Proof.
  induction 1 as [a|c k Hc Hk IH|s|]; try (constructor; reflexivity).
  apply sub_quiet; assumption.
Qed.

Lemma frozen_quiet g fd : all_calls quiet (frozen g fd).
Proof.
  eapply ac_weaken; [|apply frozen_calls]. intros c [ -> |[[n ->]|[n ->]]]; exact I.
Qed.

Lemma subg_assoc {A B C} D (p : prog A) (g : A -> prog B) (k : B -> prog C) :
  subg D (bind p (fun x => bind (g x) k)) -> subg D (bind (bind p g) k).
Proof. intros H D' Hi. apply sub_assoc, H, Hi. Qed.

Lemma quiet_subg {A} D (p : prog A) : all_calls quiet p -> subg D p.
Proof.
  intros Hp D' _. eapply sub_weaken; [apply quiet_sub, Hp|]. intros a E ->. apply incl_refl.
Qed.

Lemma fail1_then_subg {A B} fd e D (k : result A N -> prog B) : subg D (k (Err e)) -> subg D (bind (fail1 fz fd e) k).
Proof.
  intro Hk. unfold fail1. apply subg_assoc, subg_bind; [apply quiet_subg, frozen_quiet|]. intro. exact Hk.
Qed.

Lemma fail1_subg {A} fd e D : subg D (@fail1 fz A fd e).
Proof. unfold fail1. apply subg_bind; [apply quiet_subg, frozen_quiet|]. intro. apply subg_ret. Qed.

Lemma close_ret_subg {A} fd D (a : A) : subg D (close fd ;;; Ret a).
Proof. unfold close. cbn [bind]. apply subg_quiet; [exact I|]. intro. apply subg_ret. Qed.

Lemma w_unlinkat_subg d n fl D : entry_ok D d n -> subg D (w_unlinkat fz d n fl).
Proof.
  intro Hok. unfold w_unlinkat, simple1, rustix_path.
  apply subg_if; [apply subg_ret|]. apply subg_if; [apply fail1_subg|].
  apply subg_call; [exact Hok|]. intro r. cbn [grow].
  destruct (as_unit r); [apply subg_ret|apply fail1_subg].
Qed.

Lemma remove_inode_subg d n D : entry_ok D d n -> subg D (remove_inode fz d n).
Proof.
  intro Hok. unfold remove_inode.
  apply subg_bind; [apply w_unlinkat_subg, Hok|]. intros [u|ue]; [apply subg_ret|].
  apply subg_bind; [apply w_unlinkat_subg, Hok|]. intros [u|e]; apply subg_ret.
Qed.

Lemma open_flags_nofollow fl : has (N.lor (N.lor (N.lor fl OPENAT_NOFOLLOW_FORCED) OPENAT_FORCED) O_LARGEFILE) O_NOFOLLOW = true.
Proof.
  apply has_lor_l, has_lor_l, has_lor_r. reflexivity.
Qed.

(* the open of the directory to be emptied, stated with what follows it: there the result descends *)
Lemma open_then_subg {B} d n fl D (k : result Z ekind -> prog B) :
  entry_ok D d n -> (forall fd, subg (fd :: D) (k (Ok fd))) -> (forall e, subg D (k (Err e))) ->
  subg D (r <- os (w_openat fz d n fl 0) ;; k r).
Proof.
  intros Hok Hk He. unfold os, map_err. apply subg_assoc. cbn [bind].
  unfold w_openat, w_openat_follow, rustix_path.
  destruct (negb (valid_fd d)); [apply He|].
  destruct (has_nul n); [apply fail1_then_subg, He|]. cbn [bind].
  apply subg_call.
  - destruct Hok as [[-> ->]|[Hin Hp]].
    + left. repeat split. apply open_flags_nofollow.
    + right. split; [exact Hin|]. left. split; [exact Hp|apply open_flags_nofollow].
  - intro r. cbn [grow]. destruct (as_fd r) as [fd|e]; [apply Hk|apply fail1_then_subg, He].
Qed.

(* one pass over a directory iterator dfd (a re-open of "." of a descending descriptor);
   [rec n] removes the child n of a descending descriptor and is called for every listed
   name other than "." and ".." -- whatever the listing says *)
Lemma ra_entries_subg rec D : (forall n, dot_or_dotdot n = false -> subg D (rec n)) ->
  forall g dfd buf seen, subg D (ra_entries rec g dfd buf seen).
Proof.
  intros Hrec g. induction g as [|g' IH]; intros dfd buf seen; cbn [ra_entries]; [apply subg_fuel|].
  destruct buf as [|n rest].
  - apply subg_quiet; [exact I|]. intro r. destruct (as_dents r) as [[|n l]|e]; [apply close_ret_subg|apply IH|].
    apply subg_if; [apply IH|]. apply subg_if; apply close_ret_subg.
  - destruct (dot_or_dotdot n) eqn:Ed; [apply IH|].
    apply subg_bind; [apply Hrec, Ed|]. intro r. destruct (ignore_enoent r); [apply IH|apply close_ret_subg].
Qed.

(* the one distinction dir.rs makes on the answer of F_GETFL *)
Lemma resp_err_case {T} (P : T -> Prop) (r : resp) (a : N -> T) (b : T) :
  (forall e, P (a e)) -> P b -> P (match r with RErr e => a e | _ => b end).
Proof. intros Ha Hb. destruct r; [apply Ha|exact Hb..]. Qed.

Lemma ra_rounds_subg scan fin subdir D :
  In subdir D -> (forall dfd, subg (dfd :: D) (scan dfd)) -> subg D fin ->
  forall g, subg D (ra_rounds scan fin subdir g).
Proof.
  intros Hin Hscan Hfin g. induction g as [|g' IH]; cbn [ra_rounds]; [apply subg_fuel|].
  apply subg_quiet; [exact I|]. intro rf. cbv zeta. apply (resp_err_case (subg D)).
  - intro e. apply subg_if; [exact Hfin|apply close_ret_subg].
  - apply subg_call; [right; split; [exact Hin|right; reflexivity]|]. intro ro. cbn [grow].
    destruct (as_fd ro) as [dfd|e].
    + apply subg_bind; [apply Hscan|]. intro r. apply (subg_mono D); [apply incl_tl, incl_refl|].
      destruct r as [[|]|e]; [exact IH|exact Hfin|apply close_ret_subg].
    + apply subg_if; [exact Hfin|apply close_ret_subg].
Qed.

(* dir.rs remove_all.  The premise asks less of a listed name than [entry_ok]: that it has no
   '/' is remove_all's own first test, made before anything is touched. *)
Theorem remove_all_subg fuel : forall d n D,
  (d = top /\ n = nm) \/ (In d D /\ dot_or_dotdot n = false) -> subg D (remove_all fz fuel d n).
Proof.
  induction fuel as [|f IH]; intros d n D Hok; cbn [remove_all]; [apply subg_fuel|].
  destruct (has_slash n) eqn:Es; [apply subg_ret|].
  apply subg_if; [apply subg_ret|].
  assert (Hok' : entry_ok D d n).
  { destruct Hok as [H|[Hin Hd]]; [left; exact H|right; split; [exact Hin|split; assumption]]. }
  apply subg_bind; [apply remove_inode_subg, Hok'|]. intro r.
  destruct (ignore_enoent r); [apply subg_ret|].
  apply open_then_subg; [exact Hok'| |intro e2; apply subg_if; apply subg_ret].
  intro subdir. cbv zeta. apply ra_rounds_subg; [left; reflexivity| |].
  - intro dfd. apply ra_entries_subg. intros m Hm. apply IH. right. split; [right; left; reflexivity|exact Hm].
  - apply (subg_mono D); [apply incl_tl, incl_refl|].
    apply subg_bind; [apply remove_inode_subg, Hok'|]. intro. apply close_ret_subg.
Qed.

End Beneath.

Section Chain.
Variable fz : nat.

(* state: the directory the chain has reached, and the name just given to mkdirat (if the
   directory of that name has not been opened yet) *)
Definition cstate := (Z * option bytes)%type.

Definition chain_ok (st : cstate) (c : call) : Prop :=
  match c with
  | Mkdirat d n _ => d = fst st /\ snd st = None /\ has_slash n = false /\ dot_or_dotdot n = false /\ n <> []
  | Openat d n fl _ => d = fst st /\ snd st = Some n /\ has fl O_NOFOLLOW = true /\ has fl O_DIRECTORY = true
  | Openat2 _ _ _ _ _ | Mknodat _ _ _ _ | Unlinkat _ _ _ | Linkat _ _ _ _ _ | Symlinkat _ _ _
  | Renameat _ _ _ _ | Renameat2 _ _ _ _ _ => False
  | _ => True
  end.

Definition chain_step (st : cstate) (c : call) (r : resp) : cstate :=
  match c with
  | Mkdirat _ n _ => (fst st, Some n)
  | Openat _ _ _ _ => match as_fd r with Ok fd => (fd, None) | Err _ => st end
  | _ => st
  end.

Inductive chain {A} (Q : A -> cstate -> Prop) : cstate -> prog A -> Prop :=
| chain_ret st a : Q a st -> chain Q st (Ret a)
| chain_call c k st : chain_ok st c -> (forall r, chain Q (chain_step st c r) (k r)) -> chain Q st (Call c k)
| chain_panic s st : chain Q st (Panic s)
| chain_fuel st : chain Q st OutOfFuel.

Definition anyQ {A} : A -> cstate -> Prop := fun _ _ => True.

Lemma chain_bind {A B} (Q1 : A -> cstate -> Prop) (Q2 : B -> cstate -> Prop) st (p : prog A) (f : A -> prog B) :
  chain Q1 st p -> (forall a st', Q1 a st' -> chain Q2 st' (f a)) -> chain Q2 st (bind p f).
Proof.
  intros Hp Hf. induction Hp as [st a Ha|c k st Hc Hk IH|s st|st]; cbn [bind].
  - apply Hf, Ha.
  - constructor; [exact Hc|]. intro r. apply IH.
  - constructor.
  - constructor.
Qed.

Lemma chain_quiet {A} (Q : A -> cstate -> Prop) st c k :
  quiet c -> (forall r, chain Q st (k r)) -> chain Q st (Call c k).
Proof.
  intros Hq Hk.
  assert (H : chain_ok st c /\ forall r, chain_step st c r = st)
    by (destruct c; try destruct Hq; exact (conj I (fun _ => eq_refl))).
  destruct H as [Hok Hs]. constructor; [exact Hok|]. intro r. rewrite Hs. apply Hk.
Qed.

Lemma quiet_chain {A} st (p : prog A) : all_calls quiet p -> chain (fun _ st' => st' = st) st p.
Proof.
  induction 1 as [a|c k Hc Hk IH|s|]; try (constructor; reflexivity).
  apply chain_quiet; assumption.
Qed.

Lemma chain_assoc {A B C} (Q : C -> cstate -> Prop) (p : prog A) (g : A -> prog B) (k : B -> prog C) :
  forall st, chain Q st (bind p (fun x => bind (g x) k)) -> chain Q st (bind (bind p g) k).
Proof.
  induction p as [a|c k0 IH|s|]; intros st H; cbn [bind] in *; [exact H| |constructor|constructor].
  inversion H; subst. constructor; [assumption|]. intro r. apply IH. auto.
Qed.

Lemma fail1_then_chain {A B} (Q : B -> cstate -> Prop) fd e st (k : result A N -> prog B) :
  chain Q st (k (Err e)) -> chain Q st (bind (fail1 fz fd e) k).
Proof.
  intro Hk. unfold fail1. apply chain_assoc. eapply chain_bind; [apply quiet_chain, frozen_quiet|].
  intros u st' ->. exact Hk.
Qed.

Lemma close_ret_chain {A} (Q : A -> cstate -> Prop) fd st (a : A) : Q a st -> chain Q st (close fd ;;; Ret a).
Proof. intro HQ. unfold close. cbn [bind]. apply chain_quiet; [exact I|]. intro. constructor. exact HQ. Qed.

Definition part_ok (p : bytes) : Prop := dot_or_dotdot p = false /\ p <> [].

(* mkdirat(current, part): afterwards the chain waits for the open of that name -- unless the
   wrapper refused without a call, with an error that is not EEXIST *)
Lemma mkdirat_then_chain {B} (Q : B -> cstate -> Prop) cur part mode (k : result unit N -> prog B) :
  has_slash part = false -> part_ok part ->
  (forall r, chain Q (cur, Some part) (k r)) ->
  (forall e, N.eqb e EEXIST = false -> chain Q (cur, None) (k (Err e))) ->
  chain Q (cur, None) (bind (w_mkdirat fz cur part mode) k).
Proof.
  intros Hs [Hd Hne] Hk He. unfold w_mkdirat, simple1, rustix_path.
  destruct (negb (valid_fd cur)); [apply He; reflexivity|].
  destruct (has_nul part); [apply fail1_then_chain, He; reflexivity|]. cbn [bind].
  constructor; [cbn [chain_ok fst snd]; repeat split; assumption|].
  intro r. cbn [chain_step fst]. destruct (as_unit r) as [u|e]; [apply Hk|apply fail1_then_chain, Hk].
Qed.

(* openat(current, part, O_NOFOLLOW|O_DIRECTORY): on success the chain moves into the new directory *)
Lemma openat_then_chain {B} (Q : B -> cstate -> Prop) cur part (k : result Z ekind -> prog B) :
  (forall next, chain Q (next, None) (k (Ok next))) ->
  (forall e, chain Q (cur, Some part) (k (Err e))) ->
  chain Q (cur, Some part) (r <- os (w_openat fz cur part MKDIR_ALL_OPEN_FLAGS 0) ;; k r).
Proof.
  intros Hk He. unfold os, map_err. apply chain_assoc. cbn [bind].
  unfold w_openat, w_openat_follow, rustix_path.
  destruct (negb (valid_fd cur)); [apply He|].
  destruct (has_nul part); [apply fail1_then_chain, He|]. cbn [bind].
  constructor; [cbn [chain_ok fst snd]; repeat split|].
  intro r. cbn [chain_step]. destruct (as_fd r) as [next|e]; [apply Hk|apply fail1_then_chain, He].
Qed.

(* the loop of RootRef::mkdir_all over the components that do not exist yet *)
Definition mk_parts (mode : N) : list bytes -> Z -> prog (result Z ekind) :=
  fix mk (ps : list bytes) (current : Z) : prog (result Z ekind) :=
    match ps with
    | [] => Ret (Ok current)
    | part :: rest =>
        if has_slash part then close current ;;; Ret (Err SafetyViolation) else
        r <- w_mkdirat fz current part mode ;;
        match (match r with
               | Ok _ => None
               | Err e => if N.eqb e EEXIST then None else Some e
               end) with
        | Some e => close current ;;; Ret (Err (OsError e))
        | None =>
            r <- os (w_openat fz current part MKDIR_ALL_OPEN_FLAGS 0) ;;
            match r with
            | Err e => close current ;;; Ret (Err e)
            | Ok next => close current ;;; mk rest next
            end
        end
    end.

Theorem mk_parts_chain mode ps : forall cur, Forall part_ok ps ->
  chain (@anyQ (result Z ekind)) (cur, None) (mk_parts mode ps cur).
Proof.
  induction ps as [|part rest IH]; intros cur Hps; [constructor; exact I|].
  inversion Hps as [|? ? Hpart Hrest]; subst. cbn [mk_parts].
  assert (Hcl : forall (st : cstate) (e : ekind), chain (@anyQ (result Z ekind)) st (close cur ;;; Ret (Err e))).
  { intros st e. apply close_ret_chain. exact I. }
  destruct (has_slash part) eqn:Es; [apply Hcl|].
  apply mkdirat_then_chain; [exact Es|exact Hpart| |].
  - intro r. destruct (match r with Ok _ => None | Err e => if N.eqb e EEXIST then None else Some e end); [apply Hcl|].
    apply openat_then_chain; [|intro e; apply Hcl].
    intro next. unfold close. cbn [bind]. apply chain_quiet; [exact I|]. intros _. apply IH. exact Hrest.
  - intros e He. cbn iota. rewrite He. apply Hcl.
Qed.

Lemma mkdir_all_parts_ok (l : list bytes) :
  existsb is_dotdot (filter (fun p => negb (noop_part p)) l) = false ->
  Forall part_ok (filter (fun p => negb (noop_part p)) l).
Proof.
  induction l as [|p t IH]; cbn [filter]; [constructor|].
  destruct (noop_part p) eqn:En; cbn [negb]; [exact IH|].
  cbn [existsb]. intro H. apply orb_false_iff in H. destruct H as [Hdd Ht].
  constructor; [|apply IH, Ht].
  unfold noop_part in En. apply orb_false_iff in En. destruct En as [Hnil Hdot].
  split; [unfold dot_or_dotdot; rewrite Hdot, Hdd; reflexivity|].
  intro E. subst p. discriminate.
Qed.

End Chain.
