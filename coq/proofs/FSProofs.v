(* FSProofs.v -- C01: the walks over an arbitrary well-formed static file system. *)
From PV Require Import FSModel.

(* Well-formedness of a static tree: [df] is the depth of every directory; every
   directory reached as somebody's child has that somebody as its parent and
   sits one level deeper; the root is nobody's child. *)
Record wf (s : fs) (df : nat -> nat) : Prop := {
  wf_root_dir : is_dir s ROOT = true;
  wf_root_depth : df ROOT = 0%nat;
  wf_child_dir : forall d n c, lookup s d n = Some c -> is_dir s c = true ->
                               parent_of s c = d /\ df c = S (df d);
  wf_ents_dir : forall d n c, lookup s d n = Some c -> is_dir s d = true;   (* only directories hold entries *)
}.

(* reachable from the root by walking down through directory entries *)
Inductive reach (s : fs) : nat -> Prop :=
| reach_root : reach s ROOT
| reach_child d n c : reach s d -> lookup s d n = Some c -> reach s c.

Section Walks.
Variable s : fs.
Variable df : nat -> nat.
Hypothesis Hwf : wf s df.

Lemma lookup_dir_parent d n c : lookup s d n = Some c -> is_dir s c = true ->
  parent_of s c = d /\ is_dir s d = true /\ df c = S (df d).
Proof.
  intros Hl Hd. destruct (wf_child_dir s df Hwf d n c Hl Hd) as [Hp Hdf].
  split; [exact Hp|split; [exact (wf_ents_dir s df Hwf d n c Hl)|exact Hdf]].
Qed.

Lemma reach_dir_cases c : reach s c -> is_dir s c = true ->
  c = ROOT \/ (reach s (parent_of s c) /\ is_dir s (parent_of s c) = true /\ df c = S (df (parent_of s c))).
Proof.
  intros Hr Hd. inversion Hr as [|d n c' Hrd Hl]; subst; [left; reflexivity|].
  right. destruct (lookup_dir_parent d n c Hl Hd) as (-> & Hpd & Hdf). split; [exact Hrd|split; assumption].
Qed.

Lemma depth0_is_root c : reach s c -> is_dir s c = true -> df c = 0%nat -> c = ROOT.
Proof.
  intros Hr Hd H0. destruct (reach_dir_cases c Hr Hd) as [->|(_ & _ & Hs)]; [reflexivity|]. rewrite H0 in Hs. discriminate.
Qed.

Lemma parent_reach c : reach s c -> is_dir s c = true -> c <> ROOT -> reach s (parent_of s c).
Proof. intros Hr Hd Hne. destruct (reach_dir_cases c Hr Hd) as [->|[H _]]; [contradiction|exact H]. Qed.

Lemma kwalk_q_nil nf nosym b cur : kwalk_q s nf nosym b cur [] = WOk cur.
Proof. destruct b; reflexivity. Qed.

Lemma kwalk_q_cons nf nosym b cur c rest :
  kwalk_q s nf nosym b cur (c :: rest) =
  if negb (is_dir s cur) then WErr E_NOTDIR
  else if is_nil c || is_dot c then kwalk_q s nf nosym b cur rest
  else if is_dotdot c then kwalk_q s nf nosym b (if Nat.eqb cur ROOT then ROOT else parent_of s cur) rest
  else match lookup s cur c with
       | None => WErr (name_err c)
       | Some d =>
           match link_body s d with
           | None => kwalk_q s nf nosym b d rest
           | Some body =>
               if is_nil rest && nf then WOk d
               else if nosym then WErr E_LOOP
               else match b with
                    | O => WBudget
                    | S b' => kwalk_q s nf nosym b' (if is_abs body then ROOT else cur) (raw_components body ++ rest)
                    end
           end
       end.
Proof. destruct b; reflexivity. Qed.

Lemma kwalk_q_skip nf nosym b cur c rest : is_dir s cur = true -> is_nil c || is_dot c = true ->
  kwalk_q s nf nosym b cur (c :: rest) = kwalk_q s nf nosym b cur rest.
Proof. intros Hd Hc. rewrite kwalk_q_cons, Hd, Hc. reflexivity. Qed.

(* The walk recurses on the rest of the components with the same budget, or, after a link, on
   a new queue with one unit less: induction on the budget, and for each budget on the queue. *)
Lemma kwalk_q_ind (P : nat -> nat -> list bytes -> Prop) :
  (forall b cur, P b cur []) ->
  (forall b cur c rest,
     (forall cur', P b cur' rest) ->
     (forall b' cur' cs', b = S b' -> P b' cur' cs') ->
     P b cur (c :: rest)) ->
  forall b cur cs, P b cur cs.
Proof.
  intros Hnil Hcons b. induction b as [|b IHb]; intros cur cs; revert cur;
    (induction cs as [|c rest IH]; intro cur; [apply Hnil|apply Hcons; [exact IH|]]).
  - discriminate.
  - intros b' cur' cs' E. injection E as <-. apply IHb.
Qed.

(* ---- containment: a successful walk ends on an object of the root's tree ------------ *)

(* where the root is [P], a lookup from a [P] object gives one, and so does the parent of a [P] directory other than the root,
   a successful walk from a [P] object ends on one *)
Definition ok_at (P : nat -> Prop) (r : wres) : Prop := match r with WOk o => P o | _ => True end.

Lemma kwalk_q_at (P : nat -> Prop) nf nosym : P ROOT -> (forall d n c, P d -> lookup s d n = Some c -> P c) ->
  (forall c, P c -> is_dir s c = true -> c <> ROOT -> P (parent_of s c)) ->
  forall budget cur cs, P cur -> ok_at P (kwalk_q s nf nosym budget cur cs).
Proof.
  intros H0 Hlk Hpar. apply (kwalk_q_ind (fun b cur cs => P cur -> ok_at P (kwalk_q s nf nosym b cur cs))).
  { intros b cur Hr. rewrite kwalk_q_nil. exact Hr. }
  intros b cur c rest IH IHlink Hr. rewrite kwalk_q_cons.
  destruct (negb (is_dir s cur)) eqn:Ed; [exact I|]. apply negb_false_iff in Ed.
  destruct (is_nil c || is_dot c); [apply IH, Hr|].
  destruct (is_dotdot c).
  { apply IH. destruct (Nat.eqb_spec cur ROOT) as [->|Hne]; [exact H0|apply Hpar; assumption]. }
  destruct (lookup s cur c) as [d|] eqn:El; [|exact I].
  pose proof (Hlk _ _ _ Hr El) as Hd.
  destruct (link_body s d) as [body|]; [|apply IH, Hd].
  destruct (is_nil rest && nf); [exact Hd|].
  destruct nosym; [exact I|].
  destruct b as [|b']; [exact I|].
  apply (IHlink b' _ _ eq_refl). destruct (is_abs body); [exact H0|exact Hr].
Qed.

Lemma kwalk_q_reach nf nosym : forall budget cur cs, reach s cur -> ok_at (reach s) (kwalk_q s nf nosym budget cur cs).
Proof. exact (kwalk_q_at (reach s) nf nosym (reach_root s) (reach_child s) parent_reach). Qed.

(* ---- the emulated walk computes what the kernel's walk computes ---------------------
   invariant between the two machines: the emulated walk's expected-path depth
   is the directory depth of its current object (any positive number when the
   current object is not a directory -- the next step fails with ENOTDIR in
   both machines) *)
Definition depth_inv (cur depth : nat) : Prop :=
  reach s cur /\ (is_dir s cur = true -> depth = df cur) /\ (is_dir s cur = false -> depth <> 0%nat).

Lemma inv_root : depth_inv ROOT 0.
Proof.
  split; [constructor|split]; [intros _; symmetry; apply (wf_root_depth s df Hwf)|].
  rewrite (wf_root_dir s df Hwf). discriminate.
Qed.

Lemma ebody_kbody nf nosym fe fk :
  (match fe, fk with
   | None, None => True
   | Some ge, Some gk => forall cur depth cs, depth_inv cur depth -> ge cur depth cs = gk cur cs
   | _, _ => False end) ->
  forall cs cur depth, depth_inv cur depth -> ebody s nf nosym fe cur depth cs = kbody s nf nosym fk cur cs.
Proof.
  intros Hf cs. induction cs as [|c rest IH]; intros cur depth Hinv; cbn [ebody kbody]; [reflexivity|].
  pose proof Hinv as (Hr & Hdd & Hnd).
  destruct (is_dir s cur) eqn:Ed; cbn [negb].
  - (* cur is a directory *)
    specialize (Hdd eq_refl).
    destruct (is_nil c || is_dot c); [apply IH, Hinv|].
    destruct (is_dotdot c).
    + destruct depth as [|d'].
      * (* expected path is "/" : we are at the root *)
        assert (cur = ROOT) by (apply depth0_is_root; auto). subst cur.
        rewrite Nat.eqb_refl. apply IH, inv_root.
      * destruct (Nat.eqb_spec cur ROOT) as [->|Hne].
        { rewrite (wf_root_depth s df Hwf) in Hdd. discriminate. }
        apply IH. destruct (reach_dir_cases cur Hr Ed) as [->|(Hpr & Hpd & Hdf)]; [contradiction|].
        split; [exact Hpr|split].
        -- intros _. rewrite Hdf in Hdd. congruence.
        -- rewrite Hpd. discriminate.
    + destruct (lookup s cur c) as [d|] eqn:El; [|reflexivity].
      destruct (link_body s d) as [body|] eqn:Eb.
      * destruct (is_nil rest && nf); [reflexivity|]. destruct nosym; [reflexivity|].
        destruct fe as [ge|], fk as [gk|]; try contradiction; [|reflexivity].
        destruct (is_abs body); apply Hf; [apply inv_root|exact Hinv].
      * apply IH. split; [eapply reach_child; eassumption|split].
        -- intro Hdir. destruct (wf_child_dir s df Hwf cur c d El Hdir) as [_ Hdf]. congruence.
        -- intros _. discriminate.
  - (* cur is not a directory: ENOTDIR whatever comes *)
    specialize (Hnd eq_refl).
    destruct (is_nil c || is_dot c); [reflexivity|].
    destruct (is_dotdot c); [|reflexivity].
    destruct depth; [contradiction|reflexivity].
Qed.

Lemma ewalk_q_kwalk_q nf nosym budget : forall cur depth cs,
  depth_inv cur depth -> ewalk_q s nf nosym budget cur depth cs = kwalk_q s nf nosym budget cur cs.
Proof.
  induction budget as [|b IH]; intros cur depth cs Hi; cbn [ewalk_q kwalk_q].
  - apply ebody_kbody; [exact I|exact Hi].
  - apply ebody_kbody; [|exact Hi]. exact IH.
Qed.

(* ---- the errnos of a walk ---------------------------------------------------------------- *)

Definition walk_errno (e : N) : Prop := e = E_NOENT \/ e = E_NOTDIR \/ e = E_LOOP \/ e = E_NAMETOOLONG.

(* 255 is NAME_MAX: a longer name is ENAMETOOLONG, a missing one ENOENT *)
Lemma name_err_kind c : walk_errno (name_err c).
Proof. unfold name_err, walk_errno. destruct (Nat.ltb 255 (length c)); [right; right; right|left]; reflexivity. Qed.

Lemma kwalk_q_errno nf nosym : forall budget cur cs e, kwalk_q s nf nosym budget cur cs = WErr e -> walk_errno e.
Proof.
  apply (kwalk_q_ind (fun b cur cs => forall e, kwalk_q s nf nosym b cur cs = WErr e -> walk_errno e)).
  { intros b cur e. rewrite kwalk_q_nil. discriminate. }
  intros b cur c rest IH IHlink e. rewrite kwalk_q_cons.
  destruct (negb (is_dir s cur)); [intro H; injection H as <-; right; left; reflexivity|].
  destruct (is_nil c || is_dot c); [apply IH|].
  destruct (is_dotdot c); [apply IH|].
  destruct (lookup s cur c) as [d|]; [|intro H; injection H as <-; apply name_err_kind].
  destruct (link_body s d) as [body|]; [|apply IH].
  destruct (is_nil rest && nf); [discriminate|].
  destruct nosym; [intro H; injection H as <-; right; right; left; reflexivity|].
  destruct b as [|b']; [discriminate|]. exact (IHlink b' _ _ eq_refl e).
Qed.

Lemma kwalk_errno p nf nosym e : kwalk s p nf nosym = WErr e -> walk_errno e.
Proof.
  unfold kwalk. destruct (is_nil p); [intro H; injection H as <-; left; reflexivity|]. apply kwalk_q_errno.
Qed.

(* ---- more budget never changes an answer that did not run out of budget ------------- *)

Lemma kwalk_q_mono nf nosym : forall b1 cur cs b2, (b1 <= b2)%nat ->
  kwalk_q s nf nosym b1 cur cs <> WBudget -> kwalk_q s nf nosym b2 cur cs = kwalk_q s nf nosym b1 cur cs.
Proof.
  apply (kwalk_q_ind (fun b1 cur cs => forall b2, (b1 <= b2)%nat ->
           kwalk_q s nf nosym b1 cur cs <> WBudget -> kwalk_q s nf nosym b2 cur cs = kwalk_q s nf nosym b1 cur cs)).
  { intros b1 cur b2 _ _. rewrite kwalk_q_nil, kwalk_q_nil. reflexivity. }
  intros b1 cur c rest IH IHlink b2 Hle. rewrite kwalk_q_cons, kwalk_q_cons.
  destruct (negb (is_dir s cur)); [reflexivity|].
  destruct (is_nil c || is_dot c); [apply IH, Hle|].
  destruct (is_dotdot c); [apply IH, Hle|].
  destruct (lookup s cur c) as [d|]; [|reflexivity].
  destruct (link_body s d) as [body|]; [|apply IH, Hle].
  destruct (is_nil rest && nf); [reflexivity|]. destruct nosym; [reflexivity|].
  destruct b1 as [|b1']; [contradiction|]. destruct b2 as [|b2']; [inversion Hle|].
  apply (IHlink b1' _ _ eq_refl). apply le_S_n, Hle.
Qed.

Theorem emu_eq_kernel p nf nosym :
  (EMPTY_PATH_IS_ENOENT = true \/ p <> []) ->
  kwalk s p nf nosym <> WBudget ->                  (* at most 40 link traversals *)
  ewalk s p nf nosym = kwalk s p nf nosym.
Proof.
  intros Hp Hb. unfold ewalk, kwalk in *.
  destruct p as [|x p'].
  - destruct Hp as [->|Hp]; [reflexivity|contradiction].
  - cbn [is_nil]. rewrite andb_false_r.
    rewrite ewalk_q_kwalk_q by apply inv_root.
    apply kwalk_q_mono; [apply Nat.leb_le; reflexivity|exact Hb].
Qed.

Theorem kernel_in_root p nf nosym o : kwalk s p nf nosym = WOk o -> reach s o.
Proof.
  unfold kwalk. destruct (is_nil p); [discriminate|]. intro H.
  pose proof (kwalk_q_reach nf nosym KERNEL_LINKS ROOT (raw_components p) (reach_root s)) as Hr.
  rewrite H in Hr. exact Hr.
Qed.

Theorem emu_in_root p nf nosym o : ewalk s p nf nosym = WOk o -> reach s o.
Proof.
  unfold ewalk. destruct (EMPTY_PATH_IS_ENOENT && is_nil p); [discriminate|].
  rewrite ewalk_q_kwalk_q by apply inv_root. intro H.
  pose proof (kwalk_q_reach nf nosym EMU_LINKS ROOT (raw_components p) (reach_root s)) as Hr.
  rewrite H in Hr. exact Hr.
Qed.

End Walks.

(* ---- a decidable well-formedness check, so that concrete (built) trees meet the
   hypotheses of the theorems above ---------------------------------------------------- *)

Fixpoint depth_fuel (s : fs) (fuel : nat) (o : nat) : nat :=
  match fuel with
  | O => 0%nat
  | S f => if Nat.eqb o ROOT then 0%nat else S (depth_fuel s f (parent_of s o))
  end.
Definition depthf (s : fs) (o : nat) : nat := depth_fuel s (length (kinds s)) o.

Definition ent_ok (s : fs) (e : nat * bytes * nat) : bool :=
  let '(d, _, c) := e in
  is_dir s d &&
  (if is_dir s c then Nat.eqb (parent_of s c) d && Nat.eqb (depthf s c) (S (depthf s d)) else true).

Definition wf_b (s : fs) : bool :=
  is_dir s ROOT && Nat.eqb (depthf s ROOT) 0 && forallb (ent_ok s) (ents s).

(* a successful lookup found an entry of that directory whose name is the one asked for *)
Lemma find_ent_spec es d n c : find_ent es d n = Some c -> exists n', In (d, n', c) es /\ beq n n' = true.
Proof.
  induction es as [|[[d' n'] c'] t IH]; cbn [find_ent]; [discriminate|].
  destruct (Nat.eqb d d' && beq n n') eqn:E.
  - intro H. injection H as <-. apply andb_true_iff in E as [E1 E2]. apply Nat.eqb_eq in E1. subst d'.
    exists n'. split; [left; reflexivity|exact E2].
  - intro H. destruct (IH H) as (n'' & Hin & Hb). exists n''. split; [right; exact Hin|exact Hb].
Qed.

Lemma find_ent_in es d n c : find_ent es d n = Some c -> exists n', In (d, n', c) es.
Proof. intro H. destruct (find_ent_spec es d n c H) as (n' & Hin & _). exists n'. exact Hin. Qed.

