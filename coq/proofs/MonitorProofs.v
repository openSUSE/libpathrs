(* MonitorProofs.v -- the judgements of BeneathProofs as executable monitors over recorded
   traces.  The soundness theorems are about [trace_sub] and [trace_chain_from], run from the
   state the judgement starts in: a program that satisfies the judgement produces only traces
   they accept.  [trace_beneath] and [trace_chain], which tools/props/C13.py and C12.py evaluate
   on the traces of the running library (no model involved), restart them at the first unlinkat /
   mkdirat of a whole Root operation's trace; no theorem here is about that restart. *)
From PV Require Import ProgTac PathProofs Replay BeneathProofs FaultProofs EffectProofs.

Definition zmem (x : Z) (l : list Z) : bool := existsb (Z.eqb x) l.
Lemma zmem_in x l : zmem x l = true <-> In x l.
Proof.
  unfold zmem. rewrite existsb_exists. split.
  - intros (y & Hy & E). apply Z.eqb_eq in E. subst. exact Hy.
  - intro H. exists x. split; [exact H|apply Z.eqb_refl].
Qed.

Definition plainb (n : bytes) : bool := negb (has_slash n) && negb (dot_or_dotdot n).

Definition call_okb (top : Z) (nm : bytes) (D : list Z) (c : call) : bool :=
  match c with
  | Unlinkat d n _ => (Z.eqb d top && beq n nm) || (zmem d D && plainb n)
  | Openat d n fl _ =>
      (Z.eqb d top && beq n nm && has fl O_NOFOLLOW) ||
      (zmem d D && ((plainb n && has fl O_NOFOLLOW) || beq n [DOT]))
  | Openat2 _ _ _ _ _ | Mkdirat _ _ _ | Mknodat _ _ _ _ | Linkat _ _ _ _ _ | Symlinkat _ _ _
  | Renameat _ _ _ _ | Renameat2 _ _ _ _ _ => false
  | _ => true
  end.

Lemma plainb_plain n : plainb n = true <-> plain n.
Proof.
  unfold plainb, plain. rewrite andb_true_iff, !negb_true_iff. tauto.
Qed.

Lemma call_okb_of top nm D c : call_ok top nm D c -> call_okb top nm D c = true.
Proof.
  destruct c; cbn [call_ok call_okb]; try exact (fun _ => eq_refl); try (intros []; fail).
  - intros [ [ -> [ -> H ] ] | [ Hin [ [ Hp H ] | -> ] ] ].
    + rewrite Z.eqb_refl, beq_refl, H. reflexivity.
    + apply zmem_in in Hin. apply plainb_plain in Hp. rewrite Hin, Hp, H. cbn [andb orb]. apply orb_true_r.
    + apply zmem_in in Hin. rewrite Hin, beq_refl. cbn [andb]. rewrite !orb_true_r. reflexivity.
  - intros [ [ -> -> ] | [ Hin Hp ] ].
    + rewrite Z.eqb_refl, beq_refl. reflexivity.
    + apply zmem_in in Hin. apply plainb_plain in Hp. rewrite Hin, Hp. apply orb_true_r.
Qed.

Fixpoint trace_sub (top : Z) (nm : bytes) (t : trace) (D : list Z) : bool :=
  match t with
  | [] => true
  | (c, r) :: t' => call_okb top nm D c && trace_sub top nm t' (grow D c r)
  end.

Theorem sub_sound {A} top nm (Q : A -> list Z -> Prop) (p : prog A) : forall D t idx a n,
  sub top nm Q D p -> run_trace p t idx = RDone a n -> trace_sub top nm t D = true.
Proof.
  intros D t idx a n Hs. revert t idx.
  induction Hs as [a0 D Ha|c k D Hc Hk IH|s D|D]; intros t idx Hr; apply run_trace_done in Hr.
  - destruct Hr as (-> & _). reflexivity.
  - destruct Hr as (r & t' & -> & Hr). cbn [trace_sub]. rewrite (call_okb_of _ _ _ _ Hc). exact (IH r t' _ Hr).
  - destruct Hr.
  - destruct Hr.
Qed.

(* the monitor for a whole Root::remove_all trace: the first unlinkat names (dirfd, name);
   from there on the judgement is checked with an empty set of descending descriptors *)
Fixpoint trace_beneath (t : trace) : bool :=
  match t with
  | [] => true
  | (Unlinkat d n fl, r) :: t' => trace_sub d n t []
  | _ :: t' => trace_beneath t'
  end.

Definition chain_okb (st : cstate) (c : call) : bool :=
  match c with
  | Mkdirat d n _ => Z.eqb d (fst st) && (match snd st with None => true | Some _ => false end) &&
                     negb (has_slash n) && negb (dot_or_dotdot n) && negb (is_nil n)
  | Openat d n fl _ => Z.eqb d (fst st) && (match snd st with Some m => beq m n | None => false end) &&
                       has fl O_NOFOLLOW && has fl O_DIRECTORY
  | Openat2 _ _ _ _ _ | Mknodat _ _ _ _ | Unlinkat _ _ _ | Linkat _ _ _ _ _ | Symlinkat _ _ _
  | Renameat _ _ _ _ | Renameat2 _ _ _ _ _ => false
  | _ => true
  end.

Lemma chain_okb_of st c : chain_ok st c -> chain_okb st c = true.
Proof.
  destruct c; cbn [chain_ok chain_okb]; try exact (fun _ => eq_refl); try (intros []; fail).
  - intros (-> & Hs & H1 & H2). rewrite Z.eqb_refl, Hs, beq_refl, H1, H2. reflexivity.
  - intros (-> & Hs & H1 & H2 & H3). rewrite Z.eqb_refl, Hs, H1, H2. destruct path; [contradiction|reflexivity].
Qed.

Fixpoint trace_chain_from (t : trace) (st : cstate) : bool :=
  match t with
  | [] => true
  | (c, r) :: t' => chain_okb st c && trace_chain_from t' (chain_step st c r)
  end.

Theorem chain_sound {A} (Q : A -> cstate -> Prop) (p : prog A) : forall st t idx a n,
  chain Q st p -> run_trace p t idx = RDone a n -> trace_chain_from t st = true.
Proof.
  intros st t idx a n Hs. revert t idx.
  induction Hs as [st a0 Ha|c k st Hc Hk IH|s st|st]; intros t idx Hr; apply run_trace_done in Hr.
  - destruct Hr as (-> & _). reflexivity.
  - destruct Hr as (r & t' & -> & Hr). cbn [trace_chain_from]. rewrite (chain_okb_of _ _ Hc). exact (IH r t' _ Hr).
  - destruct Hr.
  - destruct Hr.
Qed.

(* the monitor for a whole Root::mkdir_all trace: the chain starts at the first mkdirat *)
Fixpoint trace_chain (t : trace) : bool :=
  match t with
  | [] => true
  | (Mkdirat d n m, r) :: t' => trace_chain_from t (d, None)
  | _ :: t' => trace_chain t'
  end.

Fixpoint trace_count (f : call -> bool) (t : trace) : nat :=
  match t with
  | [] => 0%nat
  | (c, _) :: t' => ((if f c then 1 else 0) + trace_count f t')%nat
  end.

Theorem calls_le_sound {A} (f : call -> bool) (p : prog A) : forall n t idx a m,
  calls_le f n p -> run_trace p t idx = RDone a m -> (trace_count f t <= n)%nat.
Proof.
  intros n t idx a m Hc. revert t idx.
  induction Hc as [n a0|n c k Hf Hk IH|n c k Hf Hk IH|n s|n]; intros t idx Hr; apply run_trace_done in Hr.
  - destruct Hr as (-> & _). apply Nat.le_0_l.
  - destruct Hr as (r & t' & -> & Hr). cbn [trace_count]. rewrite Hf. apply le_n_S, (IH r t' _ Hr).
  - destruct Hr as (r & t' & -> & Hr). cbn [trace_count]. rewrite Hf. exact (IH r t' _ Hr).
  - destruct Hr.
  - destruct Hr.
Qed.

Definition trace_effects (t : trace) : Z := Z.of_nat (trace_count eff t).
