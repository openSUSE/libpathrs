(* DynRemoveConc.v -- C13, racing removers: remove_all under interference.
   [rc tk s s' r]: the task [tk] of dir.rs remove_all, started in tree [s], ends in tree [s'] with result [r],
   the environment taking any number of [shrinks] steps -- entries disappear, nothing is added or modified: what
   every other remove_all caller does -- between any two system calls.  Without such steps it is [rm_all]
   ([rm_all_rc]); with them remove_all still reports success and the name is gone ([rc_converges]). *)
From PV Require Import Dyn PathProofs DynProofs DynMkdir DynRemove DynRemoveExact.

Inductive task :=
| TInode (d : nat) (n : bytes)                    (* remove_inode: unlinkat, then unlinkat(AT_REMOVEDIR) *)
| TAll (d : nat) (n : bytes)                      (* remove_all *)
| TRounds (d : nat) (n : bytes) (c : nat)         (* the scan loop over the opened directory c, then remove_inode *)
| TEntries (c : nat) (names : list bytes) (seen : bool).  (* one pass over a listing *)

Definition tol (r : result bool ekind) : bool := match r with Ok _ => true | Err e => errno_is e ENOENT end.
Definition code (r : eres) : N := match r with EErr e => e | _ => ENOSYS end.

(* all tasks share one result type: the bool says something only for TEntries ("this pass met an entry"); the other
   tasks answer [Ok true] for success *)
Inductive rc : task -> fs -> fs -> result bool ekind -> Prop :=
| rc_env tk s s1 s' r : shrinks s s1 -> rc tk s1 s' r -> rc tk s s' r
(* remove_inode *)
| rc_unlink_ok d n s s1 : unlink_sem s d n 0 = EUnit s1 -> rc (TInode d n) s s1 (Ok true)
| rc_rmdir_ok d n s s2 s3 : (forall s1, unlink_sem s d n 0 <> EUnit s1) -> shrinks s s2 ->
    unlink_sem s2 d n AT_REMOVEDIR = EUnit s3 -> rc (TInode d n) s s3 (Ok true)
| rc_rmdir_err d n s s2 : (forall s1, unlink_sem s d n 0 <> EUnit s1) -> shrinks s s2 ->
    (forall s3, unlink_sem s2 d n AT_REMOVEDIR <> EUnit s3) ->
    rc (TInode d n) s s2 (Err (OsError (if N.eqb (code (unlink_sem s2 d n AT_REMOVEDIR)) ENOTDIR then code (unlink_sem s d n 0)
                                        else code (unlink_sem s2 d n AT_REMOVEDIR))))
(* remove_all *)
| rc_all_slash d n s : has_slash n = true -> rc (TAll d n) s s (Err SafetyViolation)
| rc_all_dots d n s : has_slash n = false -> REMOVE_ALL_REFUSES_DOTS && dot_or_dotdot n = true -> rc (TAll d n) s s (Err InvalidArgument)
| rc_all_done d n s s1 r : has_slash n = false -> REMOVE_ALL_REFUSES_DOTS && dot_or_dotdot n = false ->
    rc (TInode d n) s s1 r -> tol r = true -> rc (TAll d n) s s1 (Ok true)
| rc_all_noent d n s s1 r s2 e : has_slash n = false -> REMOVE_ALL_REFUSES_DOTS && dot_or_dotdot n = false ->
    rc (TInode d n) s s1 r -> tol r = false -> shrinks s1 s2 -> mk_open s2 d n = inr e ->
    rc (TAll d n) s s2 (if N.eqb e ENOENT then Ok true else Err (OsError e))
| rc_all_dir d n s s1 r s2 c s' r' : has_slash n = false -> REMOVE_ALL_REFUSES_DOTS && dot_or_dotdot n = false ->
    rc (TInode d n) s s1 r -> tol r = false -> shrinks s1 s2 -> mk_open s2 d n = inl c ->
    rc (TRounds d n c) s2 s' r' -> rc (TAll d n) s s' r'
(* the scan loop *)
| rc_round_err d n c s s1 e : rc (TEntries c (dir_names s c) false) s s1 (Err e) -> rc (TRounds d n c) s s1 (Err e)
| rc_round_again d n c s s1 s' r : rc (TEntries c (dir_names s c) false) s s1 (Ok true) -> rc (TRounds d n c) s1 s' r ->
    rc (TRounds d n c) s s' r
| rc_round_fin d n c s s1 s2 r : rc (TEntries c (dir_names s c) false) s s1 (Ok false) -> rc (TInode d n) s1 s2 r ->
    rc (TRounds d n c) s s2 (if tol r then Ok true else r)
(* one pass *)
| rc_ent_nil c seen s : rc (TEntries c [] seen) s s (Ok seen)
| rc_ent_skip c n rest seen s s' r : dot_or_dotdot n = true -> rc (TEntries c rest seen) s s' r -> rc (TEntries c (n :: rest) seen) s s' r
| rc_ent_err c n rest seen s s1 e : dot_or_dotdot n = false -> rc (TAll c n) s s1 (Err e) -> errno_is e ENOENT = false ->
    rc (TEntries c (n :: rest) seen) s s1 (Err e)
| rc_ent_ok c n rest seen s s1 r1 s' r : dot_or_dotdot n = false -> rc (TAll c n) s s1 r1 -> tol r1 = true ->
    rc (TEntries c rest true) s1 s' r -> rc (TEntries c (n :: rest) seen) s s' r.

Definition nm_ok (n : bytes) : Prop := Dyn.plain n = true /\ too_long n = false.
Definition tree_ok (s : fs) : Prop := uniq s /\ forall e, In e (ents s) -> nm_ok (ent_name e).

Lemma tree_ok_shrinks s s' : shrinks s s' -> tree_ok s -> tree_ok s'.
Proof. intros Hs [Hu Hn]. split; [exact (uniq_shrinks _ _ Hs Hu)|]. destruct Hs as (_ & _ & Hi). intros e He. apply Hn, Hi, He. Qed.

Lemma nm_ok_facts n : nm_ok n -> has_slash n = false /\ dot_or_dotdot n = false.
Proof. intros [Hp _]. split; [exact (proj1 (proj2 (proj2 (proj2 (plain_facts _ Hp)))))|exact (plain_no_dots _ Hp)]. Qed.

(* entries only disappear: a name that is there was there, with the same object *)
Lemma lookup_shrinks_some s s' d n c : shrinks s s' -> uniq s -> lookup s' d n = Some c -> lookup s d n = Some c.
Proof.
  intros (_ & _ & Hi) Hu E. unfold FSModel.lookup in E. destruct (FSProofs.find_ent_spec _ _ _ _ E) as (n' & Hin & Hb).
  exact (lookup_in_uniq s d n n' c Hu (Hi _ Hin) Hb).
Qed.

Definition dots (names : list bytes) : Prop := Forall (fun n => dot_or_dotdot n = true) names.

Definition Pre (tk : task) (s : fs) : Prop :=
  tree_ok s /\
  match tk with
  | TInode d n | TAll d n => nm_ok n /\ is_dir s d = true
  | TRounds d n c => nm_ok n /\ is_dir s d = true /\ is_dir s c = true /\ (forall c', lookup s d n = Some c' -> c' = c)
  | TEntries c names seen => is_dir s c = true /\ Forall nm_ok names
  end.

Definition Post (tk : task) (s' : fs) (r : result bool ekind) : Prop :=
  match tk with
  | TInode d n => (tol r = true /\ lookup s' d n = None) \/
                  (r = Err (OsError ENOTEMPTY) /\ exists c, lookup s' d n = Some c /\ is_dir s' c = true /\ has_child s' c = true)
  | TAll d n | TRounds d n _ => (exists b, r = Ok b) /\ lookup s' d n = None
  | TEntries c names seen => exists b, r = Ok b /\ (b = false -> seen = false /\ dots names)
  end.

Lemma Pre_shrinks tk s s1 : shrinks s s1 -> Pre tk s -> Pre tk s1.
Proof.
  unfold Pre. intros Hs [Ht H]. split; [exact (tree_ok_shrinks _ _ Hs Ht)|].
  destruct tk as [d n|d n|d n c|c names seen]; rewrite ?(is_dir_shrinks _ _ _ Hs); try exact H.
  destruct H as (Hn & Hd & Hc & Hl). split; [exact Hn|]. split; [exact Hd|]. split; [exact Hc|].
  intros c' E. apply Hl. exact (lookup_shrinks_some _ _ _ _ _ Hs (proj1 Ht) E).
Qed.

Lemma Pre_rounds_inode d n c s : Pre (TRounds d n c) s -> Pre (TInode d n) s.
Proof. intros [Ht (Hn & Hd & _)]. split; [exact Ht|split; assumption]. Qed.

Lemma Pre_rounds_entries d n c s : Pre (TRounds d n c) s -> Pre (TEntries c (dir_names s c) false) s.
Proof.
  intros [Ht (_ & _ & Hc & _)]. split; [exact Ht|]. split; [exact Hc|]. unfold dir_names. apply Forall_forall. intros x Hx.
  apply in_map_iff in Hx. destruct Hx as (e0 & <- & He0). apply filter_In in He0. exact (proj2 Ht e0 (proj1 He0)).
Qed.

Lemma Pre_entries_cons c n rest seen s : Pre (TEntries c (n :: rest) seen) s -> Pre (TAll c n) s /\ forall b, Pre (TEntries c rest b) s.
Proof.
  intros [Ht [Hc Hn]]. split; [split; [exact Ht|split; [exact (Forall_inv Hn)|exact Hc]]|].
  intro b. split; [exact Ht|split; [exact Hc|exact (Forall_inv_tail Hn)]].
Qed.

(* remove_inode found a non-empty directory under the name; whatever disappears before we open it, the open finds
   that directory or nothing *)
Lemma open_after_inode d n s1 r s2 : Pre (TInode d n) s1 -> Post (TInode d n) s1 r -> tol r = false -> shrinks s1 s2 ->
  match mk_open s2 d n with
  | inl c => Pre (TRounds d n c) s2
  | inr e => e = ENOENT /\ lookup s2 d n = None
  end.
Proof.
  intros Hpre Hp Htol Hs. destruct (Pre_shrinks _ _ _ Hs Hpre) as [Ht2 [Hn Hd2]]. rewrite (mk_open_eq s2 d n (plain_no_dots _ (proj1 Hn))), Hd2, (name_err_short _ (proj2 Hn)). cbn [negb].
  destruct Hp as [[Ht' _]|(_ & c & Hl1 & Hc1 & _)]; [congruence|].
  destruct (lookup s2 d n) as [c'|] eqn:El2; [|split; reflexivity].
  pose proof (lookup_shrinks_some _ _ _ _ _ Hs (proj1 (proj1 Hpre)) El2) as El1. rewrite Hl1 in El1. inversion El1; subst c'.
  rewrite (is_dir_shrinks _ _ c Hs), Hc1. split; [exact Ht2|]. split; [exact Hn|]. split; [exact Hd2|].
  split; [rewrite (is_dir_shrinks _ _ c Hs); exact Hc1|]. intros c' E. congruence.
Qed.

Lemma dir_names_dots s c : tree_ok s -> dots (dir_names s c) -> has_child s c = false.
Proof.
  intros [_ Hn] Hd. unfold dir_names, dots, has_child in *. induction (ents s) as [|e es IH]; [reflexivity|].
  cbn [filter existsb map] in *. destruct (Nat.eqb (ent_dir e) c) eqn:E.
  - exfalso. cbn [map] in Hd. inversion Hd as [|? ? H1 _]; subst. destruct (nm_ok_facts _ (Hn e (or_introl eq_refl))) as [_ H2]. congruence.
  - cbn [orb]. apply IH; [intros e' He'; apply Hn; right; exact He'|exact Hd].
Qed.

Lemma rc_shrinks tk s s' r : rc tk s s' r -> shrinks s s'.
Proof. induction 1; eauto using shrinks_refl, shrinks_trans, unlink_sem_shrinks. Qed.

(* unlinkat, then -- entries may have gone meanwhile -- unlinkat(AT_REMOVEDIR), both refused: the errno is tolerated
   unless the name is a non-empty directory *)
Lemma inode_failed_post d n s s2 : Pre (TInode d n) s -> shrinks s s2 ->
  (forall s1, unlink_sem s d n 0 <> EUnit s1) -> (forall s3, unlink_sem s2 d n AT_REMOVEDIR <> EUnit s3) ->
  Post (TInode d n) s2 (Err (OsError (if N.eqb (code (unlink_sem s2 d n AT_REMOVEDIR)) ENOTDIR then code (unlink_sem s d n 0)
                                      else code (unlink_sem s2 d n AT_REMOVEDIR)))).
Proof.
  intros [Ht [[Hp Hl] Hd]] Hs Hu Hr. cbn [Post].
  assert (Hd2 : is_dir s2 d = true) by (rewrite (is_dir_shrinks _ _ d Hs); exact Hd).
  rewrite (rmdir_spec s2 d n Hp Hl Hd2) in *.
  destruct (lookup s2 d n) as [c|] eqn:El2; [|left; split; reflexivity].
  pose proof (lookup_shrinks_some _ _ _ _ _ Hs (proj1 Ht) El2) as El.
  rewrite (unlink0_spec s d n Hp Hl Hd), El in *. rewrite (is_dir_shrinks _ _ c Hs) in *.
  destruct (is_dir s c) eqn:Ec; cbn [negb] in *; [|exfalso; exact (Hu _ eq_refl)].
  destruct (has_child s2 c) eqn:Eh; [|exfalso; exact (Hr _ eq_refl)].
  right. split; [reflexivity|]. exists c. rewrite (is_dir_shrinks _ _ c Hs). repeat split; assumption.
Qed.

(* the pass saw nothing: the directory is empty and stays empty, remove_inode goes through or finds nothing *)
Lemma rounds_fin_post d n c s s2 r : Pre (TRounds d n c) s -> dots (dir_names s c) -> shrinks s s2 ->
  Post (TInode d n) s2 r -> Post (TRounds d n c) s2 (if tol r then Ok true else r).
Proof.
  intros Hpre Hdots Hs [[-> Hl2]|(-> & c0 & Hl2 & _ & Hh0)]; [split; [eexists; reflexivity|exact Hl2]|exfalso].
  destruct (Pre_shrinks _ _ _ Hs Hpre) as [_ (_ & _ & _ & Hl)]. rewrite (Hl _ Hl2) in Hh0.
  pose proof (has_child_shrinks _ _ c Hs Hh0) as Hh. rewrite (dir_names_dots s c (proj1 Hpre) Hdots) in Hh. discriminate.
Qed.

Lemma rc_post tk s s' r : rc tk s s' r -> Pre tk s -> Post tk s' r.
Proof.
  induction 1 as
    [tk s s1 s' r Hs _ IH
    |d n s s1 Hu
    |d n s s2 s3 _ Hs Hu
    |d n s s2 Hu Hs Hr
    |d n s Hsl
    |d n s Hsl Hdots
    |d n s s1 r Hsl Hdots _ IHi Htol
    |d n s s1 r s2 e Hsl Hdots Hi IHi Htol Hs Hop
    |d n s s1 r s2 c s' r' Hsl Hdots Hi IHi Htol Hs Hop _ IHr
    |d n c s s1 e _ IHe
    |d n c s s1 s' r He _ _ IHr
    |d n c s s1 s2 r He IHe Hi IHi
    |c seen s
    |c n rest seen s s' r Hdot _ IH
    |c n rest seen s s1 e Hdot _ IHa Hne
    |c n rest seen s s1 r1 s' r Hdot Ha _ Htol _ IHe]; intros Hpre.
  - exact (IH (Pre_shrinks _ _ _ Hs Hpre)).
  - left. split; [reflexivity|exact (unlink_sem_gone _ _ _ _ _ Hu)].
  - left. split; [reflexivity|exact (unlink_sem_gone _ _ _ _ _ Hu)].
  - exact (inode_failed_post d n s s2 Hpre Hs Hu Hr).
  - destruct (nm_ok_facts _ (proj1 (proj2 Hpre))). congruence.
  - destruct (nm_ok_facts _ (proj1 (proj2 Hpre))). rewrite refuses_dots in Hdots. congruence.
  - destruct (IHi Hpre) as [[_ Hl]|[-> _]]; [|discriminate Htol]. split; [eexists; reflexivity|exact Hl].
  - pose proof (open_after_inode d n s1 r s2 (Pre_shrinks _ _ _ (rc_shrinks _ _ _ _ Hi) Hpre) (IHi Hpre) Htol Hs) as Ho. rewrite Hop in Ho.
    destruct Ho as [-> Hl]. split; [eexists; reflexivity|exact Hl].
  - pose proof (open_after_inode d n s1 r s2 (Pre_shrinks _ _ _ (rc_shrinks _ _ _ _ Hi) Hpre) (IHi Hpre) Htol Hs) as Ho. rewrite Hop in Ho.
    exact (IHr Ho).
  - (* a pass cannot fail *)
    destruct (IHe (Pre_rounds_entries _ _ _ _ Hpre)) as (b & Hb & _). discriminate.
  - exact (IHr (Pre_shrinks _ _ _ (rc_shrinks _ _ _ _ He) Hpre)).
  - destruct (IHe (Pre_rounds_entries _ _ _ _ Hpre)) as (b & Hb & Hfalse). inversion Hb; subst b.
    apply (rounds_fin_post d n c s s2 r Hpre (proj2 (Hfalse eq_refl)) (shrinks_trans _ _ _ (rc_shrinks _ _ _ _ He) (rc_shrinks _ _ _ _ Hi))).
    exact (IHi (Pre_rounds_inode _ _ _ _ (Pre_shrinks _ _ _ (rc_shrinks _ _ _ _ He) Hpre))).
  - exists seen. split; [reflexivity|]. intros ->. split; [reflexivity|constructor].
  - destruct (Pre_entries_cons _ _ _ _ _ Hpre) as [_ Hrest]. destruct (IH (Hrest seen)) as (b & Hb & Hf).
    exists b. split; [exact Hb|]. intros E. destruct (Hf E) as [H1 H2]. split; [exact H1|constructor; assumption].
  - destruct (Pre_entries_cons _ _ _ _ _ Hpre) as [Hall _]. destruct (IHa Hall) as [(b & Hb) _]. discriminate.
  - destruct (Pre_entries_cons _ _ _ _ _ Hpre) as [_ Hrest]. destruct (IHe (Pre_shrinks _ _ _ (rc_shrinks _ _ _ _ Ha) (Hrest true))) as (b & Hb & Hf).
    exists b. split; [exact Hb|]. intros E. destruct (Hf E) as [H1 _]. discriminate.
Qed.

Theorem rc_converges tk s s' r : rc tk s s' r -> Pre tk s -> shrinks s s' /\ Post tk s' r.
Proof. intros H Hpre. split; [exact (rc_shrinks _ _ _ _ H)|exact (rc_post _ _ _ _ H Hpre)]. Qed.

(* without interference [rc] is rm_all (the function dir.rs remove_all was refined to) *)

Definition lift (r : result unit ekind) : result bool ekind := match r with Ok _ => Ok true | Err e => Err e end.

Lemma tol_lift r : tol (lift r) = match ignore_enoent r with Ok _ => true | Err _ => false end.
Proof. destruct r as [u|e]; cbn [lift tol ignore_enoent]; [reflexivity|]. destruct (errno_is e ENOENT); reflexivity. Qed.

Lemma lift_ignore_enoent r : lift (ignore_enoent r) = if tol (lift r) then Ok true else lift r.
Proof. destruct r as [u|e]; cbn [lift tol ignore_enoent]; [reflexivity|]. destruct (errno_is e ENOENT); reflexivity. Qed.

Lemma inode_rc s d n : rc (TInode d n) s (fst (rm_inode s d n)) (lift (snd (rm_inode s d n))).
Proof.
  destruct (rm_inode_spec s d n) as [[E S]|[(N0 & E & S)|(N0 & N1 & E)]].
  - rewrite S. exact (rc_unlink_ok d n s _ E).
  - rewrite S. exact (rc_rmdir_ok d n s s _ N0 (shrinks_refl s) E).
  - rewrite E. exact (rc_rmdir_err d n s s N0 (shrinks_refl s) N1).
Qed.

Lemma entries_rc rec c : (forall s n s' r, rec s n = Some (s', r) -> rc (TAll c n) s s' (lift r)) ->
  forall g s buf seen s' r, rm_entries rec g s c buf true seen = Some (s', r) -> rc (TEntries c buf seen) s s' r.
Proof.
  intro Hrec. induction g as [|g IH]; intros s buf seen s' r H; cbn [rm_entries] in H; [discriminate|].
  destruct buf as [|n rest]; [inversion H; subst; apply rc_ent_nil|].
  destruct (dot_or_dotdot n) eqn:Ed; [apply rc_ent_skip; [exact Ed|apply IH; exact H]|].
  destruct (rec s n) as [[s1 r1]|] eqn:Er; [|discriminate]. pose proof (Hrec _ _ _ _ Er) as Hall.
  pose proof (tol_lift r1) as Htol. destruct (ignore_enoent r1) as [u|e] eqn:Ei.
  - eapply rc_ent_ok; [exact Ed|exact Hall|exact Htol|apply IH; exact H].
  - inversion H; subst. destruct r1 as [u|e1]; cbn [ignore_enoent] in Ei; [discriminate|].
    destruct (errno_is e1 ENOENT) eqn:Ee; inversion Ei; subst. eapply rc_ent_err; [exact Ed|exact Hall|exact Ee].
Qed.

Lemma scan_rc rec c : (forall s n s' r, rec s n = Some (s', r) -> rc (TAll c n) s s' (lift r)) ->
  forall g s s' r, rm_entries rec g s c [] false false = Some (s', r) -> rc (TEntries c (dir_names s c) false) s s' r.
Proof.
  intros Hrec g s s' r H. destruct g as [|g]; [discriminate|]. cbn [rm_entries] in H.
  destruct g as [|g]; [discriminate|]. cbn [rm_entries] in H. change (dot_or_dotdot [DOT]) with true in H. cbv iota in H.
  destruct g as [|g]; [discriminate|]. cbn [rm_entries] in H. change (dot_or_dotdot [DOT; DOT]) with true in H. cbv iota in H.
  exact (entries_rc rec c Hrec g s _ false s' r H).
Qed.

Lemma rounds_rc f d n c : (forall s n s' r, rm_all f s c n = Some (s', r) -> rc (TAll c n) s s' (lift r)) ->
  forall g s s' r, rm_rounds (rm_scan f c) (rm_fin d n) g s = Some (s', r) -> rc (TRounds d n c) s s' (lift r).
Proof.
  intro Hrec. induction g as [|g IH]; intros s s' r H; cbn [rm_rounds] in H; [discriminate|].
  destruct (rm_scan f c s) as [[s1 [[|]|e]]|] eqn:Es; try discriminate; pose proof (scan_rc _ c Hrec _ _ _ _ Es) as Hscan.
  - eapply rc_round_again; [exact Hscan|apply IH; exact H].
  - rewrite rm_fin_eq in H. inversion H; subst s' r. rewrite lift_ignore_enoent.
    exact (rc_round_fin d n c s s1 _ _ Hscan (inode_rc s1 d n)).
  - inversion H; subst. apply rc_round_err. exact Hscan.
Qed.

Theorem rm_all_rc : forall f s d n s' r, rm_all f s d n = Some (s', r) -> rc (TAll d n) s s' (lift r).
Proof.
  induction f as [|f IH]; intros s d n s' r; [discriminate|].
  pose proof (inode_rc s d n) as Hi. pose proof (tol_lift (snd (rm_inode s d n))) as Htol.
  destruct (rm_all_cases f s d n) as [Hsl|Hsl Hd|u Hsl Hd Hig|e0 e Hsl Hd Hig Ho|e0 c Hsl Hd Hig Ho]; intro H;
    try rewrite <- refuses_dots in Hd; try rewrite Hig in Htol.
  - inversion H; subst s' r. apply rc_all_slash. exact Hsl.
  - inversion H; subst s' r. apply rc_all_dots; assumption.
  - inversion H; subst. eapply rc_all_done; eassumption.
  - pose proof (rc_all_noent d n s _ _ _ e Hsl Hd Hi Htol (shrinks_refl _) Ho) as Hn.
    destruct (N.eqb e ENOENT); inversion H; subst; exact Hn.
  - eapply rc_all_dir; [exact Hsl|exact Hd|exact Hi|exact Htol|apply shrinks_refl|exact Ho|].
    exact (rounds_rc f d n c (fun s3 n0 => IH s3 c n0) f _ s' r H).
Qed.

(* the race clause: whatever the other removers do and whenever, remove_all reports success and the name is gone *)
Theorem remove_all_converges_under_racing_removers s d n s' r :
  rc (TAll d n) s s' r -> tree_ok s -> nm_ok n -> is_dir s d = true ->
  (exists b, r = Ok b) /\ lookup s' d n = None /\ shrinks s s'.
Proof.
  intros H Ht Hn Hd. destruct (rc_converges _ _ _ _ H (conj Ht (conj Hn Hd))) as [Hs [Hr Hl]]. split; [exact Hr|]. split; [exact Hl|exact Hs].
Qed.

(* non-vacuity: a/ holds f and g.  We unlink a (EISDIR), rmdir a (ENOTEMPTY); before we open a, another remover takes
   a/f away; we open a, our pass removes g and has seen an entry; the second pass sees nothing; rmdir a. *)
Definition ex_s0 : fs :=
  {| kinds := [FSModel.KDir; FSModel.KDir; FSModel.KReg; FSModel.KReg]; parents := [0; 0; 1; 1]%nat;
     ents := [(0%nat, b "a", 1%nat); (1%nat, b "f", 2%nat); (1%nat, b "g", 3%nat)] |}.
Definition ex_s1 : fs := del_ent ex_s0 1 (b "f").
Definition ex_s2 : fs := {| kinds := kinds ex_s0; parents := parents ex_s0; ents := [] |}.

Example racing_run :
  rc (TAll 0 (b "a")) ex_s0 ex_s2 (Ok true) /\ tree_ok ex_s0 /\ nm_ok (b "a") /\ is_dir ex_s0 0 = true.
Proof.
  split.
  - pose proof (inode_rc ex_s0 0 (b "a")) as Hi.
    assert (Er : rm_inode ex_s0 0 (b "a") = (ex_s0, Err (OsError ENOTEMPTY))) by (vm_compute; reflexivity).
    rewrite Er in Hi. cbn [fst snd lift] in Hi.
    eapply (rc_all_dir 0%nat (b "a") ex_s0 ex_s0 _ ex_s1 1%nat); [reflexivity|reflexivity|exact Hi|reflexivity| |vm_compute; reflexivity|].
    + apply del_ent_shrinks.
    + assert (Hrounds : rm_rounds (rm_scan 8 1) (rm_fin 0 (b "a")) 8 ex_s1 = Some (ex_s2, Ok tt)) by (vm_compute; reflexivity).
      exact (rounds_rc 8 0%nat (b "a") 1%nat (fun s3 n0 => rm_all_rc 8 s3 1 n0) 8 ex_s1 ex_s2 (Ok tt) Hrounds).
  - split; [|split; [split; reflexivity|reflexivity]].
    split.
    + intros d n1 n2 c1 c2 H1 H2 Hb. apply beq_true_iff in Hb. subst n2. vm_compute in H1, H2.
      destruct H1 as [H1|[H1|[H1|[]]]]; injection H1 as <- <- <-; destruct H2 as [H2|[H2|[H2|[]]]]; congruence.
    + intros e [<-|[<-|[<-|[]]]]; split; reflexivity.
Qed.
