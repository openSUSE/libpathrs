(* DynRemoveTotal.v -- C13: rm_all does not run out of fuel (nesting depth + #entries + 6 suffices, [rm_all_total]); with
   the exact statement of DynRemoveExact.v that is [rm_all_post], which props/C13.v puts behind the parent lookup of
   either backend; a caller that comes after another finds nothing and changes nothing. *)
From PV Require Import Dyn DynProofs DynMkdir DynRemove DynRemoveExact.

(* the entries afterwards are a FILTER of the entries before (stronger than [shrinks]: lengths) *)

Definition sub (s s' : fs) : Prop :=
  kinds s' = kinds s /\ parents s' = parents s /\ exists f, ents s' = filter f (ents s).

Lemma filter_filter {A} (f g : A -> bool) l : filter f (filter g l) = filter (fun x => g x && f x) l.
Proof. induction l as [|x l IH]; cbn [filter]; [reflexivity|]. destruct (g x); cbn [filter andb]; [destruct (f x); rewrite IH; reflexivity|exact IH]. Qed.

Lemma filter_len {A} (f : A -> bool) l : (length (filter f l) <= length l)%nat.
Proof. induction l as [|x l IH]; cbn [filter length]; [lia|]. destruct (f x); cbn [length]; lia. Qed.

Lemma sub_refl s : sub s s.
Proof. repeat split; try reflexivity. exists (fun _ => true). induction (ents s) as [|x l IH]; cbn [filter]; [reflexivity|]. rewrite <- IH. reflexivity. Qed.

Lemma sub_trans s1 s2 s3 : sub s1 s2 -> sub s2 s3 -> sub s1 s3.
Proof.
  intros (A1 & B1 & f & C1) (A2 & B2 & g & C2). repeat split; [congruence|congruence|].
  exists (fun x => f x && g x). rewrite C2, C1. apply filter_filter.
Qed.

Lemma sub_shrinks s s' : sub s s' -> shrinks s s'.
Proof. intros (A & B & f & C). repeat split; [exact A|exact B|]. rewrite C. apply incl_filter. Qed.

Lemma sub_len s s' : sub s s' -> (length (ents s') <= length (ents s))%nat.
Proof. intros (_ & _ & f & C). rewrite C. apply filter_len. Qed.

Lemma filter_and_len {A} (f g : A -> bool) l : (length (filter (fun x => f x && g x) l) <= length (filter g l))%nat.
Proof.
  induction l as [|x l IH]; cbn [filter]; [lia|].
  destruct (f x), (g x); cbn [andb length]; lia.
Qed.

Lemma sub_dir_names s s' c : sub s s' -> (length (dir_names s' c) <= length (dir_names s c))%nat.
Proof.
  intros (_ & _ & f & C). unfold dir_names. rewrite !map_length, C, filter_filter. apply filter_and_len.
Qed.

Lemma unlink_sem_sub s d n fl s' : unlink_sem s d n fl = EUnit s' -> sub s s'.
Proof. intro H. destruct (unlink_sem_unit _ _ _ _ _ H) as [-> _]. repeat split. eexists. reflexivity. Qed.

Lemma rm_entries_sub rec : (forall s n s' r, rec s n = Some (s', r) -> sub s s') ->
  forall g s c buf read seen s' r, rm_entries rec g s c buf read seen = Some (s', r) -> sub s s'.
Proof. exact (rm_entries_R sub sub_refl sub_trans rec). Qed.

Theorem rm_all_sub : forall fuel s d name s' r, rm_all fuel s d name = Some (s', r) -> sub s s'.
Proof. exact (rm_all_R sub sub_refl sub_trans unlink_sem_sub). Qed.

Lemma rm_scan_sub f c s s' r : rm_scan f c s = Some (s', r) -> sub s s'.
Proof. apply rm_entries_sub. intros s3 n s4 r4. apply rm_all_sub. Qed.

(* the sub-directories below [c] nest at most [k] deep *)

Fixpoint deep (s : fs) (k : nat) (c : nat) : Prop :=
  match k with
  | O => forall n c', In (c, n, c') (ents s) -> is_dir s c' = false
  | S k' => forall n c', In (c, n, c') (ents s) -> is_dir s c' = true -> deep s k' c'
  end.

Lemma deep_sub s s' : sub s s' -> forall k c, deep s k c -> deep s' k c.
Proof.
  intros Hs. pose proof (sub_shrinks _ _ Hs) as Hsh. induction k as [|k IH]; intros c H; cbn [deep] in *.
  - intros n c' Hin. rewrite (is_dir_shrinks _ _ c' Hsh). destruct Hsh as (_ & _ & Hi). exact (H n c' (Hi _ Hin)).
  - intros n c' Hin Hd. rewrite (is_dir_shrinks _ _ c' Hsh) in Hd. apply IH. destruct Hsh as (_ & _ & Hi). exact (H n c' (Hi _ Hin) Hd).
Qed.

(* one pass does not run out of fuel when the calls on the entries do not.  The measure: one unit of fuel per name
   still in the buffer and one for the last, empty read; before the first read, the names the directory holds (they
   can only become fewer, [sub]) and 4: that read, "." and "..", the last read *)
Lemma entries_total rec c : (forall s n s' r, rec s n = Some (s', r) -> sub s s') ->
  forall g s0 s buf (read seen : bool), sub s0 s -> (forall s2 n, sub s0 s2 -> rec s2 n <> None) ->
  (length buf + (if read then 1 else length (dir_names s c) + 4) <= g)%nat ->
  rm_entries rec g s c buf read seen <> None.
Proof.
  intros Hsub. induction g as [|g IH]; intros s0 s buf read seen Hs Hrec Hg.
  - destruct read; lia.
  - cbn [rm_entries]. destruct buf as [|n rest].
    + destruct read; [discriminate|]. apply (IH s0 s); [exact Hs|exact Hrec|]. cbn [length]. cbn [length] in Hg. lia.
    + cbn [length] in Hg. destruct (dot_or_dotdot n); [apply (IH s0 s); [exact Hs|exact Hrec|lia]|].
      destruct (rec s n) as [[s1 r1]|] eqn:Er; [|exfalso; exact (Hrec s n Hs Er)].
      destruct (ignore_enoent r1); [|discriminate].
      pose proof (Hsub _ _ _ _ Er) as Hs1. apply (IH s0 s1); [eapply sub_trans; eassumption|exact Hrec|].
      pose proof (sub_dir_names _ _ c Hs1). destruct read; lia.
Qed.

Lemma entries_clears rec c : (forall s n s' r, rec s n = Some (s', r) -> sub s s') ->
  (forall s n s', Dyn.plain n = true -> rec s n = Some (s', Ok tt) -> lookup s' c n = None) ->
  (forall s n s' e, rec s n = Some (s', Err e) -> errno_is e ENOENT = false) ->
  forall g s buf seen s' b, rm_entries rec g s c buf true seen = Some (s', Ok b) ->
  forall n, In n buf -> Dyn.plain n = true -> lookup s' c n = None.
Proof.
  intros Hsub Hgone Hne. induction g as [|g IH]; intros s buf seen s' b H n Hin Hpl; cbn [rm_entries] in H; [discriminate|].
  destruct buf as [|n0 rest]; [destruct Hin|].
  destruct (dot_or_dotdot n0) eqn:Ed0.
  - destruct Hin as [E|Hin]; [subst n0; rewrite (plain_no_dots _ Hpl) in Ed0; discriminate|]. exact (IH _ _ _ _ _ H n Hin Hpl).
  - destruct (rec s n0) as [[s1 r1]|] eqn:Er; [|discriminate].
    destruct r1 as [[]|e1].
    + cbn [ignore_enoent] in H. destruct Hin as [E|Hin]; [subst n0|exact (IH _ _ _ _ _ H n Hin Hpl)].
      pose proof (Hgone _ _ _ Hpl Er) as Hg1.
      pose proof (rm_entries_sub rec Hsub _ _ _ _ _ _ _ _ H) as Hs2.
      exact (lookup_shrinks_none _ _ _ _ (sub_shrinks _ _ Hs2) Hg1).
    + cbn [ignore_enoent] in H. rewrite (Hne _ _ _ _ Er) in H. discriminate.
Qed.

(* a pass over a freshly opened directory that went through leaves the directory empty *)
Lemma pass_empties rec c : (forall s n s' r, rec s n = Some (s', r) -> sub s s') ->
  (forall s n s', Dyn.plain n = true -> rec s n = Some (s', Ok tt) -> lookup s' c n = None) ->
  (forall s n s' e, rec s n = Some (s', Err e) -> errno_is e ENOENT = false) ->
  forall g s seen s' b, ents_ok s -> rm_entries rec g s c [] false seen = Some (s', Ok b) -> dir_names s' c = [].
Proof.
  intros Hsub Hgone Hne g s seen s' b Hok H. destruct g as [|g]; [discriminate|]. cbn [rm_entries] in H.
  pose proof (entries_clears rec c Hsub Hgone Hne _ _ _ _ _ _ H) as Hclr.
  pose proof (rm_entries_sub rec Hsub _ _ _ _ _ _ _ _ H) as Hs.
  destruct (dir_names s' c) as [|n l] eqn:Ef; [reflexivity|exfalso].
  assert (Hn : In n (dir_names s' c)) by (rewrite Ef; left; reflexivity). unfold dir_names in Hn. apply in_map_iff in Hn.
  destruct Hn as (e & <- & He). apply filter_In in He. destruct He as [Hin' Hd]. apply Nat.eqb_eq in Hd. subst c.
  pose proof (proj2 (proj2 (sub_shrinks _ _ Hs)) _ Hin') as Hin.
  assert (Hnm : In (ent_name e) (dir_names s (ent_dir e))) by (apply in_map, filter_In; split; [exact Hin|apply Nat.eqb_refl]).
  pose proof (Hclr (ent_name e) (or_intror (or_intror Hnm)) (proj2 (Hok _ Hin))) as Hl.
  destruct e as [[ed en] ec]. exact (find_ent_none _ _ _ _ _ Hl Hin' (PathProofs.beq_refl en)).
Qed.

(* 4: the read, ".", "..", the read that finds the stream at its end *)
Lemma scan_of_empty rec c g s seen : dir_names s c = [] -> (4 <= g)%nat -> rm_entries rec g s c [] false seen = Some (s, Ok seen).
Proof.
  intros He Hg. do 4 (destruct g as [|g]; [lia|]). cbn [rm_entries]. rewrite He. reflexivity.
Qed.

(* 2: a pass that met entries and went through has emptied the directory, the next one sees nothing *)
Lemma rounds_total scan fin : (forall s s' r, scan s = Some (s', r) -> sub s s') ->
  forall s0, (forall s2, sub s0 s2 -> scan s2 <> None) ->
  (forall s2 s3, sub s0 s2 -> scan s2 = Some (s3, Ok true) -> scan s3 = Some (s3, Ok false)) ->
  forall g, (2 <= g)%nat -> rm_rounds scan fin g s0 <> None.
Proof.
  intros Hsub s0 Htot Hnext g Hg. do 2 (destruct g as [|g]; [lia|]). cbn [rm_rounds].
  destruct (scan s0) as [[s1 [[|]|e]]|] eqn:Es; try discriminate; [|exfalso; exact (Htot s0 (sub_refl s0) Es)].
  rewrite (Hnext s0 s1 (sub_refl s0) Es). discriminate.
Qed.

Lemma ignore_enoent_err r e : ignore_enoent r = Err e -> errno_is e ENOENT = false.
Proof. destruct r as [u|e0]; cbn [ignore_enoent]; [discriminate|]. destruct (errno_is e0 ENOENT) eqn:E; [discriminate|]. intro H. inversion H; subst. exact E. Qed.

Lemma entries_err rec : forall g s c buf rd sn s' e, rm_entries rec g s c buf rd sn = Some (s', Err e) -> errno_is e ENOENT = false.
Proof.
  induction g as [|g IH]; intros s c buf rd sn s' e H; cbn [rm_entries] in H; [discriminate|].
  destruct buf as [|n rest].
  - destruct rd; [discriminate|]. exact (IH _ _ _ _ _ _ _ H).
  - destruct (dot_or_dotdot n); [exact (IH _ _ _ _ _ _ _ H)|].
    destruct (rec s n) as [[s1 r1]|]; [|discriminate].
    destruct (ignore_enoent r1) as [u|e1] eqn:Ei; [exact (IH _ _ _ _ _ _ _ H)|]. inversion H; subst. exact (ignore_enoent_err _ _ Ei).
Qed.

Lemma rounds_err scan fin : (forall s s' e, scan s = Some (s', Err e) -> errno_is e ENOENT = false) ->
  (forall s e, snd (fin s) = Err e -> errno_is e ENOENT = false) ->
  forall g s s' e, rm_rounds scan fin g s = Some (s', Err e) -> errno_is e ENOENT = false.
Proof.
  intros Hscan Hfin. induction g as [|g IH]; intros s s' e H; cbn [rm_rounds] in H; [discriminate|].
  destruct (scan s) as [[s1 [[|]|e1]]|] eqn:Es; try discriminate.
  - exact (IH _ _ _ H).
  - inversion H as [H1]. apply (Hfin s1). rewrite H1. reflexivity.
  - inversion H; subst. exact (Hscan _ _ _ Es).
Qed.

Lemma rm_all_err_not_enoent : forall fuel s d name s' e, rm_all fuel s d name = Some (s', Err e) -> errno_is e ENOENT = false.
Proof.
  intros [|f] s d name s' e; [discriminate|].
  destruct (rm_all_cases f s d name) as [_|_ _|u _ _ _|e0 e1 _ _ _ _|e0 c _ _ _ _]; intro H; try (inversion H; reflexivity).
  - destruct (N.eqb_spec e1 ENOENT) as [|Hne]; [discriminate|]. inversion H; subst.
    unfold errno_is. cbn [kind_errno opt_n_eqb]. apply N.eqb_neq, Hne.
  - eapply rounds_err; [| |exact H].
    + intros s2 s3 e3. apply entries_err.
    + intros s2 e2. rewrite rm_fin_eq. apply ignore_enoent_err.
Qed.

(* [j] = 0: the named entry is absent or not a directory; [j] = k + 1: if it is a directory, the sub-directories
   below it nest at most [k] deep.  Fuel: one unit per level of the recursion, and at each level what one pass needs
   ([entries_total]: #entries + 4), which also covers the two rounds *)
Lemma rm_all_total_gen : forall j f s d name, ents_ok s -> (j + length (ents s) + 5 <= f)%nat ->
  (forall c, lookup s d name = Some c -> is_dir s c = true -> exists k, j = S k /\ deep s k c) -> rm_all f s d name <> None.
Proof.
  induction j as [j IHj] using lt_wf_ind. intros f s d name Hok Hf Hdeep.
  destruct f as [|f]; [lia|].
  destruct (rm_all_cases f s d name) as [_|_ _|u _ _ _|e0 e _ _ _ _|e0 c _ Hdots Hi Ho]; try discriminate.
  rewrite (rm_inode_failed _ _ _ _ Hi) in *.
  destruct (mk_open_inl_dir _ _ _ _ Hdots Ho) as [Hl Hd]. destruct (Hdeep c Hl Hd) as (k & -> & Hdc).
  (* every call on an entry of c, on any later state, has enough fuel *)
  assert (Hrec : forall s3 n, sub s s3 -> rm_all f s3 c n <> None).
  { intros s3 n Hs3. pose proof (sub_len _ _ Hs3) as Hlen. pose proof (sub_shrinks _ _ Hs3) as Hsh3.
    apply (IHj k (Nat.lt_succ_diag_r k)); [exact (ents_ok_shrinks _ _ Hsh3 Hok)|lia|].
    intros c' Hl' Hd'. destruct (FSProofs.find_ent_spec _ _ _ _ Hl') as (n' & Hin' & _). apply (proj2 (proj2 Hsh3)) in Hin'.
    rewrite (is_dir_shrinks _ _ c' Hsh3) in Hd'.
    destruct k as [|k']; cbn [deep] in Hdc; [rewrite (Hdc n' c' Hin') in Hd'; discriminate|].
    exists k'. split; [reflexivity|]. exact (deep_sub _ _ Hs3 _ _ (Hdc n' c' Hin' Hd')). }
  assert (Hrsub : forall s3 n s4 r4, rm_all f s3 c n = Some (s4, r4) -> sub s3 s4) by (intros s3 n; apply rm_all_sub).
  apply (rounds_total _ _ (rm_scan_sub f c) s).
  - (* a pass has enough fuel *)
    intros s2 Hs2. apply (entries_total _ c Hrsub f s s2 [] false false Hs2).
    + intros s3 n Hs3. apply Hrec. exact Hs3.
    + pose proof (sub_len _ _ Hs2). pose proof (sub_dir_names _ _ c Hs2).
      assert (length (dir_names s c) <= length (ents s))%nat by (unfold dir_names; rewrite map_length; apply filter_len).
      cbn [length]. lia.
  - (* after a pass that saw entries and went through, the directory is empty: the next pass sees nothing *)
    intros s2 s3 Hs2 Hscan.
    assert (He : dir_names s3 c = []).
    { eapply (pass_empties _ c Hrsub); [| |exact (ents_ok_shrinks _ _ (sub_shrinks _ _ Hs2) Hok)|exact Hscan].
      - intros s4 n s5 Hpn Hr. exact (rm_all_gone f s4 c n s5 Hpn Hr).
      - intros s4 n s5 e9 Hr. exact (rm_all_err_not_enoent f s4 c n s5 e9 Hr). }
    apply scan_of_empty; [exact He|lia].
  - lia.
Qed.

Theorem rm_all_total : forall k f s d name, ents_ok s -> (k + length (ents s) + 6 <= f)%nat ->
  (forall c, lookup s d name = Some c -> is_dir s c = true -> deep s k c) -> rm_all f s d name <> None.
Proof.
  intros k f s d name Hok Hf Hdeep. apply (rm_all_total_gen (S k)); [exact Hok|lia|].
  intros c Hl Hd. exists k. split; [reflexivity|exact (Hdeep c Hl Hd)].
Qed.

(* on any tree (names unique per directory, plain names, sub-directories below the target at most k deep) and with
   fuel k + #entries + 6, rm_all returns -- never out of fuel --, adds and modifies nothing, and, when it reports
   success, the entries are exactly the old ones minus the named entry and what is beneath it *)
Lemma rm_all_post k f s d name : uniq s -> ents_ok s -> Dyn.plain name = true ->
  (forall c, lookup s d name = Some c -> is_dir s c = true -> deep s k c) -> (k + length (ents s) + 6 <= f)%nat ->
  exists s' r, rm_all f s d name = Some (s', r) /\ shrinks s s' /\
    (r = Ok tt -> forall e, In e (ents s') <-> (In e (ents s) /\ ~ under s d name e)).
Proof.
  intros Hu Hok Hpl Hdeep Hfuel. pose proof (rm_all_total k f s d name Hok Hfuel Hdeep) as Htot.
  destruct (rm_all f s d name) as [[s' r]|] eqn:Erm; [|contradiction].
  exists s', r. split; [reflexivity|]. split; [exact (rm_all_shrinks _ _ _ _ _ _ Erm)|].
  intros ->. exact (rm_all_exact f s d name s' Hu Hpl Erm).
Qed.

(* a caller that comes after: the named entry is absent -> success, nothing changes *)
Theorem rm_all_absent f s d name : Dyn.plain name = true -> too_long name = false -> is_dir s d = true ->
  lookup s d name = None -> rm_all (S f) s d name = Some (s, Ok tt).
Proof.
  intros Hp Hl Hd Hn. cbn [rm_all]. rewrite refuses_dots, (plain_no_dots _ Hp), (rm_inode_absent s d name Hp Hl Hd Hn).
  destruct (plain_facts _ Hp) as (_ & _ & _ & -> & _). reflexivity.
Qed.

Corollary rm_all_again f g s d name s' : Dyn.plain name = true -> too_long name = false -> is_dir s d = true ->
  rm_all f s d name = Some (s', Ok tt) -> rm_all (S g) s' d name = Some (s', Ok tt).
Proof.
  intros Hp Hl Hd H. apply rm_all_absent; try assumption.
  - rewrite (is_dir_shrinks _ _ d (rm_all_shrinks _ _ _ _ _ _ H)). exact Hd.
  - exact (rm_all_gone _ _ _ _ _ Hp H).
Qed.
